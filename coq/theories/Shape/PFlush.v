(* A modelling assumption about the shape of the CURRENT source (Gen/Shape.v), re-checked on every run. *)
From Coq Require Import List.
From V9 Require Import Gen.Shape Shape.ShapeLib.

Lemma flush_chains_under_conn_lock_ok : flush_chains_under_conn_lock = true.  Proof. vm_compute. reflexivity. Qed.
