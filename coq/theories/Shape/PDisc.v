(* A modelling assumption about the shape of the CURRENT source (Gen/Shape.v), re-checked on every run. *)
From Coq Require Import List.
From V9 Require Import Gen.Shape Shape.ShapeLib.

Lemma disconnect_paths_ok : disconnect_paths = true.  Proof. vm_compute. reflexivity. Qed.
Lemma ufs_link_drops_reference_ok : ufs_link_drops_reference = true.  Proof. vm_compute. reflexivity. Qed.
