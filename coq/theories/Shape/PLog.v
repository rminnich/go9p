(* A modelling assumption about the shape of the CURRENT source (Gen/Shape.v), re-checked on every run. *)
From Coq Require Import List.
From V9 Require Import Gen.Shape Shape.ShapeLib.

Lemma logger_shape_ok : logger_shape = true.  Proof. vm_compute. reflexivity. Qed.
