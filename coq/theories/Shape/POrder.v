(* Order of the steps of Respond, recv and process in the CURRENT source. *)
From Coq Require Import List.
From V9 Require Import Gen.Shape Shape.ShapeLib.

Lemma respond_order_ok : respond_order = true.                    Proof. vm_compute. reflexivity. Qed.
Lemma recv_resets_reply_type_ok : recv_resets_reply_type = true.  Proof. vm_compute. reflexivity. Qed.
Lemma cancelled_not_executed_ok : cancelled_not_executed = true.  Proof. vm_compute. reflexivity. Qed.
