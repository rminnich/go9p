(* Structural parameters of Srv/Buf.v instantiated from the CURRENT source (Gen/Shape.v via Shape/ShapeLib.v).
   Every proof here evaluates generated data: it is re-checked on every run and breaks when the order of the
   corresponding statements in the Go code changes. *)
From Coq Require Import List.
From V9 Require Import Gen.Shape Shape.ShapeLib Srv.Buf Srv.BufProofs.
Import ListNotations.

(* ---- Srv/Buf.v: test-and-pack atomic?  recycling after the Write? ---- *)
Definition buf_cfg_of_source : Buf.cfg := Buf.mkCfg ShapeLib.pack_under_lock ShapeLib.recycle_after_write.

Lemma buf_cfg_is_fixed : buf_cfg_of_source = Buf.fixed_cfg.
Proof. vm_compute. reflexivity. Qed.

Theorem wire_bytes_belong_to_request_src : forall s r c,
  Buf.reach buf_cfg_of_source s -> In (r, c) (Buf.wire s) -> exists v, c = Some (r, v).
Proof. rewrite buf_cfg_is_fixed. exact wire_bytes_belong_to_request. Qed.

