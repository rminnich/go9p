(* A modelling assumption about the shape of the CURRENT source (Gen/Shape.v), re-checked on every run. *)
From Coq Require Import List.
From V9 Require Import Gen.Shape Shape.ShapeLib.

Lemma ufs_looks_at_the_tree_ok : ufs_looks_at_the_tree = true.  Proof. vm_compute. reflexivity. Qed.
