(* Structural parameters of Srv/FidVis.v and Srv/FidRef.v instantiated from the CURRENT source. *)
From Coq Require Import List.
From V9 Require Import Gen.Shape Shape.ShapeLib Srv.FidVis Srv.FidRef Srv.FidRefProofs.
Import ListNotations.

(* ---- Srv/FidVis.v: does FidGet refuse fids that are still being created? ---- *)
Definition fidvis_guard_of_source : bool := fidget_guard.

Lemma fidvis_guard_is_on : fidvis_guard_of_source = true.
Proof. vm_compute. reflexivity. Qed.

Theorem handler_sees_only_set_up_fids_src : forall ls t' seen,
  FidVis.run fidvis_guard_of_source [] ls = Some (t', seen) -> Forall (fun e => e_setup e = true) seen.
Proof. rewrite fidvis_guard_is_on. exact handler_sees_only_set_up_fids_from_start. Qed.

(* ---- Srv/FidRef.v: linked / dead / closed bookkeeping as in the fixed reference counting? ---- *)
Definition fidref_fixed_of_source : bool := fidget_guard && fid_lifetime.

Lemma fidref_is_fixed : fidref_fixed_of_source = true.
Proof. vm_compute. reflexivity. Qed.

Theorem quiescent_all_destroyed_once_src : forall s,
  FidRef.reach fidref_fixed_of_source s -> FidRef.quiescent s ->
  (forall o, In o (FidRef.objs s) -> FidRef.o_destroyed o = 1) /\ FidRef.table s = [].
Proof. rewrite fidref_is_fixed. exact quiescent_all_destroyed_once. Qed.

Theorem destroyed_at_most_once_src : forall s i o,
  FidRef.reach fidref_fixed_of_source s -> nth_error (FidRef.objs s) i = Some o -> FidRef.o_destroyed o + FidRef.o_pend o <= 1.
Proof. rewrite fidref_is_fixed. exact destroyed_or_pending_at_most_once. Qed.

