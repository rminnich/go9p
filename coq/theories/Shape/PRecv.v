(* A modelling assumption about the shape of the CURRENT source (Gen/Shape.v), re-checked on every run. *)
From Coq Require Import List.
From V9 Require Import Gen.Shape Shape.ShapeLib.

Lemma recv_rereads_dialect_ok : recv_rereads_dialect = true.  Proof. vm_compute. reflexivity. Qed.
Lemma size_checked_against_msize_ok : size_checked_against_msize = true.  Proof. vm_compute. reflexivity. Qed.
