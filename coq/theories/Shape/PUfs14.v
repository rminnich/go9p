(* A modelling assumption about the shape of the CURRENT source (Gen/Shape.v), re-checked on every run. *)
From Coq Require Import List.
From V9 Require Import Gen.Shape Shape.ShapeLib.

Lemma ufs_reads_positionally_ok : ufs_reads_positionally = true.  Proof. vm_compute. reflexivity. Qed.
