(* Flush requests: linking, ownership of the waiting lists, ordering of Rflush. *)
From Coq Require Import NArith List PeanoNat Lia.
From V9 Require Import Lib.GoSem Gen.Consts Srv.Conc Srv.ConcInv Srv.ConcStep Srv.ConcWF Srv.ConcMono Srv.ConcCount
  Srv.ConcContent Srv.ConcWin Srv.ConcLocal Srv.ConcOrder.
Import ListNotations.

Lemma target_mono : forall c s l s' f t, reach c s -> Step c s l s' ->
  qo s f q_target = Some t -> qo s' f q_target = Some t.
Proof.
  intros c s l s' f t Rc H. pose proof (reach_WF _ _ Rc) as W. unfold qo.
  destruct (getq s f) as [q|] eqn:Hq; [|discriminate]. intro X.
  destruct (step_evol _ _ _ _ W H _ _ Hq) as (q' & Hq' & _). rewrite Hq'.
  destruct (qmove_target _ _ _ _ _ _ (step_getq_old _ _ _ _ _ _ _ W H Hq Hq')) as [-> | (_ & Y & _)]; auto.
  rewrite (pre_no_target _ _ _ _ Rc Hq) in X; [discriminate | rewrite Y; exact I].
Qed.

Lemma target_some_mono : forall c s l s' f, reach c s -> Step c s l s' ->
  qo s f q_target <> None -> qo s' f q_target <> None.
Proof.
  intros c s l s' f Rc H X. destruct (qo s f q_target) eqn:E; [|congruence].
  rewrite (target_mono _ _ _ _ _ _ Rc H E). discriminate.
Qed.

(* a request that has packed its reply had its target, if any, before *)
Lemma target_back : forall c s l s' f t, reach c s -> Step c s l s' -> qb s f hb = true ->
  qo s' f q_target = Some t -> qo s f q_target = Some t.
Proof.
  intros c s l s' f t Rc H Hh. pose proof (reach_WF c s Rc) as W. unfold qb, qo in *.
  destruct (getq s f) as [q|] eqn:Hq; [|discriminate].
  destruct (step_evol _ _ _ _ W H _ _ Hq) as (q' & Hq' & _). rewrite Hq'.
  destruct (qmove_target _ _ _ _ _ _ (step_getq_old _ _ _ _ _ _ _ W H Hq Hq')) as [-> | (-> & Y & _)]; auto.
  exfalso. pose proof (reach_RInv _ _ Rc _ _ Hq) as Iq. destruct (ri_packed q Iq Hh) as [X | X].
  - apply X. rewrite Y. exact I.
  - destruct (ri_called q Iq X) as (K & _).
    destruct (step_actor _ _ _ _ _ _ H eq_refl Hq) as (q1 & _ & Q). inversion Q; congruence.
Qed.

Definition is_relink (s : st) (l : label) : Prop :=
  exists fi f q nx, l = LR fi /\ nth_error (F s) fi = Some f /\ f_pc f = R2 /\
                    getq s (f_req f) = Some q /\ q_prev q = Some nx.

(* a flush chains itself at F1: it becomes the head of its target's list, the old head follows it *)
Lemma qmove_links : forall c s l r q q', getq s r = Some q -> qmove c s l r q q' ->
  (q_flushreq q' = q_flushreq q \/ (exists f, l = LF1 f /\ q_flushreq q' = Some f) \/ is_relink s l) /\
  (q_flushnext q' = q_flushnext q \/
   (l = LF1 r /\ q_pc q = WProc /\ exists t qt, getq s t = Some qt /\ q_target q' = Some t /\
                                               q_flushnext q' = q_flushreq qt) \/
   is_relink s l).
Proof.
  intros c s l r q q' Hq [-> | Q]; auto. destruct Q; auto; simpl.
  - split; [auto | right; left; split; [reflexivity | split; [assumption | exists t, qt; auto]]].
  - split; [right; left; exists r; auto | auto].
  - split; [right; left; exists r; auto | right; left; split; [reflexivity | split; [assumption | exists r, q; auto]]].
  - split; right; right; exists fi, f, q, nx; auto.
Qed.

Lemma F1_no_target : forall c s r s', reach c s -> Step c s (LF1 r) s' -> qo s r q_target = None.
Proof.
  intros c s r s' Rc H. unfold qo. destruct (getq s r) as [q|] eqn:Hq; auto.
  apply (pre_no_target _ _ _ _ Rc Hq). rewrite (F1_actor_pc _ _ _ _ _ H Hq). exact I.
Qed.

Lemma F1_new_head : forall c s r s' t qt qt', WF s -> Step c s (LF1 r) s' ->
  getq s t = Some qt -> getq s' t = Some qt' -> q_flushreq qt' = Some r -> q_flushreq qt <> Some r ->
  exists qr', getq s' r = Some qr' /\ q_target qr' = Some t /\ q_flushnext qr' = q_flushreq qt.
Proof.
  intros c s r s' t qt qt' W H Hq Hq' E Ne.
  destruct (step_getq_old _ _ _ _ _ _ _ W H Hq Hq') as [-> | Q]; [congruence|].
  assert (Hr : exists q, getq s r = Some q) by (inversion Q; subst; simpl in *; eauto; congruence).
  destruct Hr as (q & Hr). destruct (step_actor _ _ _ _ _ _ H eq_refl Hr) as (qr' & Hr' & Q').
  exists qr'. split; auto.
  inversion Q; subst; simpl in *; try congruence; inversion Q'; subst; simpl; split; congruence.
Qed.

(* no tag was ever shared *)
Definition NG (s : st) : Prop := forall r q, getq s r = Some q -> q_after q = None.

Lemma NG_back : forall c s l s', WF s -> Step c s l s' -> NG s' -> NG s.
Proof.
  intros c s l s' W H N r q Hq.
  destruct (step_evol _ _ _ _ W H _ _ Hq) as (q' & Hq' & Ev). unfold evol in Ev.
  specialize (N _ _ Hq'). intuition congruence.
Qed.

Lemma NG_noprev : forall s, GInv s -> NG s -> forall r q, getq s r = Some q -> q_prev q = None.
Proof.
  intros s G N r q Hq. destruct (q_prev q) as [b|] eqn:E; auto.
  destruct (qo_inv _ _ _ _ (g_prev s G _ _ _ Hq E)) as (qb & Hb & X). rewrite (N _ _ Hb) in X. discriminate.
Qed.

Lemma NG_norelink : forall c s l, reach c s -> NG s -> ~ is_relink s l.
Proof.
  intros c s l Rc N (fi & f & q & nx & _ & _ & _ & Hq & Hp).
  rewrite (NG_noprev s (reach_GInv _ _ Rc) N _ _ Hq) in Hp. discriminate.
Qed.

(* induction on [reach] for states without shared tags: the states before them had none either *)
Lemma reach_NG_inv : forall c (P : st -> Prop),
  P init ->
  (forall s l s', reach c s -> NG s -> P s -> Step c s l s' -> P s') ->
  forall s, reach c s -> NG s -> P s.
Proof.
  intros c P P0 PS s H. induction H; intros N; auto.
  assert (N0 : NG s) by (eapply NG_back; eauto using reach_WF, step_Step).
  eapply PS; eauto using step_Step.
Qed.

(* the lists of waiting flushes belong to the request they hang on *)
Definition ch_ok (s : st) (r : nat) (q : rq) : Prop :=
    (forall f, q_flushreq q = Some f -> qo s f q_target = Some r) /\
    (forall f, q_flushnext q = Some f -> qo s r q_target <> None /\ qo s f q_target = qo s r q_target).

Record CHInv (s : st) : Prop := {
  ch_rq : forall r q, getq s r = Some q -> ch_ok s r q;
  ch_cur : forall w f, In w (F s) -> f_cur w = Some f ->
              qo s f q_target = Some (f_req w) /\ f_won w = true /\ 4 <= ord (f_pc w) }.

Lemma ch_req : forall s t qt f, CHInv s -> getq s t = Some qt -> q_flushreq qt = Some f -> qo s f q_target = Some t.
Proof. intros s t qt f C Hq. apply (ch_rq s C _ _ Hq). Qed.

Lemma ch_next : forall s g qg f, CHInv s -> getq s g = Some qg -> q_flushnext qg = Some f ->
  qo s g q_target <> None /\ qo s f q_target = qo s g q_target.
Proof. intros s g qg f C Hq. apply (ch_rq s C _ _ Hq). Qed.

Lemma CHInv_init : CHInv init.
Proof. constructor; simpl; intros; try contradiction; destruct r; discriminate. Qed.

Lemma ch_ok_keep : forall s s' r q q',
  (forall f t, qo s f q_target = Some t -> qo s' f q_target = Some t) ->
  ch_ok s r q -> q_flushreq q' = q_flushreq q -> q_flushnext q' = q_flushnext q -> ch_ok s' r q'.
Proof.
  intros s s' r q q' M (A & B) E1 E2. split; intros f Hf.
  - rewrite E1 in Hf. auto.
  - rewrite E2 in Hf. destruct (B f Hf) as (B1 & B2).
    destruct (qo s r q_target) eqn:E; [|congruence].
    rewrite (M _ _ E), (M _ _ B2). split; congruence.
Qed.

Lemma CHInv_step : forall c s l s', reach c s -> NG s -> CHInv s -> Step c s l s' -> CHInv s'.
Proof.
  intros c s l s' Rc N C H. pose proof (reach_WF _ _ Rc) as W. pose proof (reach_GInv _ _ Rc) as G.
  assert (M := fun f t => target_mono c s l s' f t Rc H).
  constructor.
  - intros r q' Hg.
    destruct (step_getq _ _ _ _ W H _ _ Hg) as [(q & Hq & M') | (_ & tag & k & -> & -> & ->)].
    2: { split; simpl; intros; discriminate. }
    pose proof (ch_rq s C _ _ Hq) as Ok.
    destruct M' as [-> | Q]; [eapply ch_ok_keep; eauto|].
    destruct Q; try (eapply ch_ok_keep; eauto; fail).
    + (* the flusher: the old head of its target's list follows it *)
      split; [intros f Hf; apply M; apply Ok; auto|].
      intros f Hf. unfold qo at 1 3. rewrite Hg. simpl. split; [discriminate|].
      apply M. apply (ch_req s t qt f C Hqt). auto.
    + (* the target: the flusher is the new head *)
      destruct (step_actor _ _ _ _ _ _ H eq_refl Ha) as (q' & Hq' & Q).
      split.
      * intros f0 Hf. inversion Hf; subst f0. unfold qo. rewrite Hq'.
        inversion Q; subst; simpl; congruence.
      * intros f0 Hf. destruct Ok as (_ & B). destruct (B f0 Hf) as (B1 & B2).
        destruct (qo s t q_target) eqn:E; [|congruence]. rewrite (M _ _ E), (M _ _ B2). split; congruence.
    + (* a flush naming its own tag *)
      split.
      * intros f0 Hf. inversion Hf; subst f0. unfold qo. rewrite Hg. reflexivity.
      * intros f Hf. unfold qo at 1 3. rewrite Hg. simpl. split; [discriminate|].
        apply M. apply (ch_req s r q f C Hq). auto.
    + rewrite (NG_noprev s G N _ _ Ha) in Hp. discriminate.
  - intros w' x Hi Hc.
    destruct (step_frame _ _ _ _ _ H Hi) as [Ho | [(fi & w & _ & Hn & St) | (y & -> & _)]]; [| |discriminate].
    + destruct (ch_cur s C _ _ Ho Hc) as (A1 & A2 & A3). auto.
    + pose proof (nth_error_In _ _ Hn) as Hw.
      destruct (fstep_adv _ _ _ _ St) as (Er & Eo & Keep). rewrite Er.
      assert (Old : f_cur w = Some x -> qo s' x q_target = Some (f_req w) /\ f_won w' = true /\ 4 <= ord (f_pc w')).
      { intro X. destruct (ch_cur s C _ _ Hw X) as (A1 & A2 & A3). repeat split; auto; [|lia].
        destruct Keep as (-> & _); auto. intro Y. rewrite Y in A3. simpl in A3. lia. }
      destruct St; simpl in Hc; try discriminate; auto.
      * (* R2, last of its tag: the winner takes the list *)
        simpl. repeat split; [apply M; eapply ch_req; eauto | | lia].
        apply (g_w1 s G w Hw). rewrite Hfp. reflexivity.
      * apply Old. congruence.
      * (* R7: on to the next one *)
        destruct (ch_cur s C _ _ Hw Hcur) as (A1 & A2 & A3). simpl. repeat split; auto.
        apply M. destruct (ch_next s _ _ _ C Hqx Hc) as (_ & B2). congruence.
Qed.

Lemma reach_CHInv : forall c s, reach c s -> NG s -> CHInv s.
Proof. intros c. apply reach_NG_inv; [apply CHInv_init | intros; eapply CHInv_step; eauto]. Qed.

(* the invocation will not queue a reply: it finds, or found, reqFlush set *)
Definition frame_blocked (s : st) (h : frame) : Prop :=
  (f_pc h = R1 -> qb s (f_req h) q_flush = true) /\ (f_pc h <> R1 -> f_sflush h = true).

(* An invocation on a request that is still in the dispatch and was not handed over is blocked;
   one on a flush request that has its target is blocked or comes from the target's winner,
   which has unlinked the target by then. *)
Definition fr_flush_ok (s : st) (h : frame) : Prop :=
  forall qf, getq s (f_req h) = Some qf ->
    (pre (q_pc qf) -> q_called qf = false -> frame_blocked s h) /\
    (forall t, q_target qf = Some t -> frame_blocked s h \/ won_past s t 4).

Definition FFInv (s : st) : Prop := forall h, In h (F s) -> fr_flush_ok s h.

Lemma frame_blocked_mono : forall c s l s' h, WF s -> Step c s l s' ->
  frame_blocked s h -> frame_blocked s' h.
Proof.
  intros c s l s' h W H (A & B). split; auto. intro X. eapply qb_mono; eauto.
Qed.

Lemma blocked_R1 : forall s x, qb s x q_flush = true -> frame_blocked s (new_frame x).
Proof. intros. split; simpl; intros; auto; congruence. Qed.

Lemma fr_flush_ok_mono : forall c s l s' h, reach c s -> Step c s l s' -> In h (F s) ->
  fr_flush_ok s h -> fr_flush_ok s' h.
Proof.
  intros c s l s' h Rc H Hi Ok qf' Hq'. pose proof (reach_WF _ _ Rc) as W. pose proof (reach_GInv _ _ Rc) as G.
  destruct (getq_some s (f_req h)) as (qf & Hq); [destruct (wf_F s W h Hi); auto|].
  pose proof (step_getq_old _ _ _ _ _ _ _ W H Hq Hq') as M.
  destruct (Ok _ Hq) as (A & B). destruct (qmove_evol _ _ _ _ _ _ M) as (_ & _ & _ & _ & _ & _ & Cl & _).
  assert (Bl : pre (q_pc qf) -> q_called qf' = false -> frame_blocked s' h).
  { intros Pr Cf. eapply frame_blocked_mono; eauto. apply A; auto.
    destruct (q_called qf); auto. rewrite Cl in Cf; auto. }
  split.
  - intros Pr. apply Bl. destruct (pre_dec (q_pc qf)) as [P | NP]; auto.
    elim (not_pre_step c s l s' _ qf qf' W G H Hq Hq' NP Pr).
  - intros t Ht. destruct (qmove_target _ _ _ _ _ _ M) as [Tg | (-> & Pc & _)].
    + rewrite Tg in Ht. destruct (B t Ht) as [X | X].
      * left. eapply frame_blocked_mono; eauto.
      * right. eapply won_past_step; eauto; lia.
    + (* the flush request finds its target only now *)
      left. apply Bl; [rewrite Pc; exact I|].
      destruct (q_called qf') eqn:Cf; auto. exfalso.
      destruct (step_actor _ _ _ _ _ _ H eq_refl Hq) as (q1 & Hq1 & Q). assert (q1 = qf') by congruence. subst q1.
      destruct (qmove_called _ _ _ _ _ _ M) as [Ce | (X & _)]; [|discriminate].
      destruct (ri_called qf (reach_RInv _ _ Rc _ _ Hq)) as (K & _); [congruence|]. inversion Q; congruence.
Qed.

Lemma fr_flush_ok_transfer : forall s f f', fr_flush_ok s f -> f_req f' = f_req f ->
  (frame_blocked s f -> frame_blocked s f') -> fr_flush_ok s f'.
Proof.
  intros s f f' Ok E T qf Hq. rewrite E in Hq. destruct (Ok _ Hq) as (A & B). split.
  - intros. apply T. auto.
  - intros t Ht. destruct (B t Ht); auto.
Qed.

Lemma FFInv_step : forall c s l s', reach c s -> NG s -> FFInv s -> Step c s l s' -> FFInv s'.
Proof.
  intros c s l s' Rc N FF H h' Hi. pose proof (reach_WF _ _ Rc) as W.
  assert (Old := fun h Hh => fr_flush_ok_mono c s l s' h Rc H Hh (FF h Hh)).
  assert (RI := reach_RInv _ _ Rc).
  destruct (step_frame _ _ _ _ _ H Hi) as [Ho | [(fi & h & -> & Hn & St) | (x & -> & St)]]; auto.
  - (* an invocation that advances stays blocked *)
    pose proof (nth_error_In _ _ Hn) as Hh. destruct (fstep_adv _ _ _ _ St) as (Er & Eo & Keep).
    apply (fr_flush_ok_transfer _ h); auto. intros (X1 & X2).
    destruct (f_pc h) eqn:Hfp; try (destruct Keep as (_ & Ks); [discriminate|]; split; intro Y;
      [rewrite Y in Eo; simpl in Eo; lia | rewrite Ks; apply X2; discriminate]).
    inversion St; try congruence. subst h'. pose proof (step_R1 _ _ _ _ _ _ H Hn Hfp Hfq) as Hq'.
    specialize (X1 eq_refl). rewrite (qb_getq _ _ _ _ Hq') in X1. simpl in X1.
    split; simpl; intro Y; [destruct (q_resp q); discriminate | auto].
  - (* a new invocation *)
    assert (Act : forall q, getq s x = Some q -> actor l = Some x ->
              exists q', getq s' x = Some q' /\ qstep c s l x q q').
    { intros q Hq A. eapply step_actor; eauto. }
    intros qf Hq. simpl in Hq. destruct St.
    (* cancelled before the start, rejected, nothing to flush, version: the request has left the
       dispatch, and it has no target *)
    all: try solve [destruct (Act _ Ha eq_refl) as (q' & Hq' & Q); assert (q' = qf) by congruence; subst q';
                    inversion Q; subst; try congruence; simpl; split; [tauto|]; intros t Ht;
                    rewrite (pre_no_target _ _ _ _ Rc Ha) in Ht; [discriminate | rewrite Hpc; exact I]].
    + (* answer: handed over, and not a flush request *)
      destruct (Act _ Ha eq_refl) as (q' & Hq' & Q). assert (q' = qf) by congruence. subst q'.
      inversion Q; subst. simpl. split; [congruence|]. intros t Ht. exfalso.
      destruct (ri_target q (RI _ _ Ha)) as ((o & K) & _); [congruence|].
      destruct (ri_called q (RI _ _ Ha) Hcl) as (K' & _). congruence.
    + (* flush responds for an unstarted target *)
      assert (Bl : frame_blocked s' (new_frame t)).
      { apply blocked_R1. apply (qb_mono _ _ _ _ t W H).
        destruct (b_rq s (reach_BInv _ _ Rc) _ _ Ha) as (_ & _ & _ & X). auto. }
      split; auto.
    + (* the implementation flushes *)
      assert (Bl : frame_blocked s' (new_frame t)).
      { apply blocked_R1. apply (actor_packs _ _ _ _ _ _ H Ha). reflexivity. }
      split; auto.
    + (* R6: a waiting flush is answered by the winner of its target *)
      destruct (ch_cur s (reach_CHInv _ _ Rc N) f x (nth_error_In _ _ Hn) Hcur) as (A1 & A2 & A3).
      assert (A1' := target_mono _ _ _ _ _ _ Rc H A1). simpl in Hq. rewrite (qo_getq _ _ _ _ Hq) in A1'.
      split.
      * intros Pr _. exfalso. destruct (qo_inv _ _ _ _ A1) as (q0 & Hq0 & T0).
        destruct (ri_target q0 (RI _ _ Hq0)) as (_ & Z); [congruence|].
        apply (not_pre_step c s (LR fi) s' x q0 qf W (reach_GInv _ _ Rc) H Hq0 Hq Z Pr).
      * intros t Ht. right. assert (t = f_req f) by congruence. subst t.
        apply (won_past_step c s (LR fi) s' (f_req f) 4 H); [lia|]. exists f. eauto using nth_error_In.
Qed.

Lemma reach_FFInv : forall c s, reach c s -> NG s -> FFInv s.
Proof. intros c. apply reach_NG_inv; [intros h [] | apply FFInv_step]. Qed.

(* the reply to the flushed request precedes the Rflush *)
Definition FOInv (s : st) : Prop :=
  forall f t, qo s f q_target = Some t -> In f (SQ s) -> won_past s t 3 /\ ordered (SQ s) t f.

Lemma FOInv_step : forall c s l s', reach c s -> NG s -> FOInv s -> Step c s l s' -> FOInv s'.
Proof.
  intros c s l s' Rc N FO H f t Ht Hin. pose proof (reach_GInv c s Rc) as G.
  assert (Old : In f (SQ s) -> won_past s' t 3 /\ ordered (SQ s) t f /\ won_past s t 3).
  { intro Hi. destruct (FO f t) as (A & B); auto.
    - eapply target_back; eauto. eapply SQ_hb; eauto.
    - repeat split; auto. eapply won_past_step; eauto. }
  destruct (SQ_step _ _ _ _ H) as [E | (h & Hh & Hpc & Hsf & E)]; rewrite E in *.
  { destruct (Old Hin) as (A & B & _). auto. }
  assert (NP : forall n, 3 <= n -> ~ won_past s (f_req h) n).
  { intros n Hn. apply (not_past s h n G Hh); rewrite Hpc; simpl; auto; lia. }
  apply in_app_or in Hin. destruct Hin as [Hi | [<- | []]].
  - destruct (Old Hi) as (A & B & A0). split; auto. apply ordered_snoc; auto.
    intros <- _ _. apply (NP 3); auto.
  - (* the Rflush is queued now: its invocation is not blocked, so it comes from the target's winner *)
    assert (Hh' : qb s (f_req h) hb = true).
    { destruct (b_fr s (reach_BInv c s Rc) h Hh) as (_ & X & _). apply X; auto. congruence. }
    destruct (qo_inv _ _ _ _ (target_back _ _ _ _ _ _ Rc H Hh' Ht)) as (qf & Hq & Ht0).
    assert (Wp : won_past s t 4).
    { destruct (reach_FFInv c s Rc N h Hh _ Hq) as (_ & B). destruct (B t Ht0) as [(_ & X) | X]; auto.
      rewrite X in Hsf; [discriminate | congruence]. }
    split; [apply (won_past_step c s l s' t 3 H); [lia | eapply won_past_le; eauto]|].
    destruct (in_dec Nat.eq_dec (f_req h) (SQ s)) as [Hi | Ni].
    + destruct (Old Hi) as (_ & B & _). apply ordered_snoc; auto. intros <- _ _. apply (NP 4); auto.
    + apply ordered_snoc.
      * intros i j _ Hj. elim Ni. apply idx_In. congruence.
      * intros <- _ _. apply (NP 4); auto.
Qed.

Lemma reach_FOInv : forall c s, reach c s -> NG s -> FOInv s.
Proof.
  intros c. apply reach_NG_inv; [|apply FOInv_step]. intros f t X. destruct f; discriminate.
Qed.
