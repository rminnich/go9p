(* A Respond in progress can always be completed: the lists of waiting flush requests are
   acyclic (also with shared tags), so the loop at its end terminates. *)
From Coq Require Import List Bool PeanoNat Lia Wf_nat.
From V9 Require Import Lib.GoSem Gen.Consts Srv.Conc Srv.ConcInv Srv.ConcStep Srv.ConcWF Srv.ConcMono Srv.ConcCount
  Srv.ConcContent Srv.ConcWin Srv.ConcLocal Srv.ConcOrder Srv.ConcFlush.
Import ListNotations.

(* The lists of waiting flushes lead downwards.  z follows x ([edge_ok]) or heads the list of t
   ([head_ok]): its target is the same (and, behind x, its rank [sq] smaller), or lies [below]: at or
   before the request that the target of x (that t) was queued behind on arrival and whose Respond
   has unlinked it since. *)
Definition below (s : st) (tx tz : nat) : Prop :=
  exists a, qo s tx q_after = Some a /\ won_past s a 4 /\ tz <= a.

Definition edge_ok (s : st) (sq : nat -> nat) (x z : nat) : Prop :=
  exists tx tz, qo s x q_target = Some tx /\ qo s z q_target = Some tz /\
    ((tz = tx /\ sq z < sq x) \/ below s tx tz).

Definition head_ok (s : st) (t h : nat) : Prop :=
  exists th, qo s h q_target = Some th /\ (th = t \/ below s t th).

Record AInv (s : st) (sq : nat -> nat) : Prop := {
  a_edge : forall x qx z, getq s x = Some qx -> q_flushnext qx = Some z -> edge_ok s sq x z;
  a_head : forall t qt h, getq s t = Some qt -> q_flushreq qt = Some h -> head_ok s t h;
  a_cur : forall w x, In w (F s) -> f_cur w = Some x -> qo s x q_target <> None }.

Section Mono.
  Variables (c : cfg) (s : st) (l : label) (s' : st).
  Hypothesis (Rc : reach c s) (H : Step c s l s').

  Lemma below_mono : forall tx tz, below s tx tz -> below s' tx tz.
  Proof.
    intros tx tz (a & A & B & C). exists a. repeat split; auto.
    - eapply qo_after_mono; eauto using reach_WF.
    - eapply won_past_step; eauto; lia.
  Qed.

  Lemma edge_ok_mono : forall sq x z, edge_ok s sq x z -> edge_ok s' sq x z.
  Proof.
    intros sq x z (tx & tz & A & B & C). exists tx, tz. repeat split; eauto using target_mono.
    destruct C as [C | C]; auto. right. apply below_mono. auto.
  Qed.

  Lemma head_ok_mono : forall t h, head_ok s t h -> head_ok s' t h.
  Proof.
    intros t h (th & A & B). exists th. split; eauto using target_mono.
    destruct B as [B | B]; auto. right. apply below_mono. auto.
  Qed.
End Mono.

Lemma below_lt : forall c s tx tz, reach c s -> below s tx tz -> tz < tx.
Proof.
  intros c s tx tz H (a & A & _ & B). pose proof (after_lt c s H _ _ A). lia.
Qed.

(* old links keep their justification, new links are justified directly *)
Lemma AInv_update : forall c s l s' sq sq', reach c s -> AInv s sq -> Step c s l s' ->
  (forall y, qo s y q_target <> None -> sq' y = sq y) ->
  (forall x qx' z, getq s' x = Some qx' -> q_flushnext qx' = Some z ->
     (exists qx, getq s x = Some qx /\ q_flushnext qx = Some z) \/ edge_ok s' sq' x z) ->
  (forall t qt' h, getq s' t = Some qt' -> q_flushreq qt' = Some h ->
     (exists qt, getq s t = Some qt /\ q_flushreq qt = Some h) \/ head_ok s' t h) ->
  AInv s' sq'.
Proof.
  intros c s l s' sq sq' Rc A H Sq E Hd. constructor.
  - intros x qx' z Hq Hz. destruct (E _ _ _ Hq Hz) as [(qx & Hq0 & Hz0) | X]; auto.
    pose proof (a_edge s sq A _ _ _ Hq0 Hz0) as Ok.
    destruct (edge_ok_mono c s l s' Rc H sq x z Ok) as (tx & tz & A1 & A2 & A3).
    destruct Ok as (tx0 & tz0 & B1 & B2 & _).
    exists tx, tz. repeat split; auto.
    rewrite (Sq x), (Sq z) by congruence. auto.
  - intros t qt' h Hq Hh. destruct (Hd _ _ _ Hq Hh) as [(qt & Hq0 & Hh0) | X]; auto.
    eapply head_ok_mono; eauto. eapply (a_head s sq A); eauto.
  - intros w' x Hi Hc.
    assert (M := target_some_mono c s l s').
    destruct (step_frame _ _ _ _ _ H Hi) as [Ho | [(fi & w & _ & Hn & St) | (y & -> & _)]]; [| |discriminate].
    + eapply M, (a_cur s sq A); eauto.
    + pose proof (nth_error_In _ _ Hn) as Hw.
      destruct St; simpl in Hc; try discriminate; eapply M; eauto; try (eapply (a_cur s sq A); eauto; fail).
      * destruct (a_head s sq A _ _ _ Hfq Hc) as (th & X & _). congruence.
      * eapply (a_cur s sq A); eauto. congruence.
      * destruct (a_edge s sq A _ _ _ Hqx Hc) as (tx & tz & _ & X & _). congruence.
Qed.

(* the list of a request whose predecessor has not unlinked yet is its own *)
Lemma chain_last_pure : forall s sq nx, AInv s sq -> (forall tz, ~ below s nx tz) ->
  forall fuel h, qo s h q_target = Some nx -> qo s (chain_last fuel (R s) h) q_target = Some nx.
Proof.
  intros s sq nx A NB. induction fuel; simpl; intros h Hh; auto.
  destruct (nth_error (R s) h) as [q|] eqn:E; auto.
  destruct (q_flushnext q) as [j|] eqn:E2; auto.
  apply IHfuel. destruct (a_edge s sq A h q j E E2) as (tx & tz & B1 & B2 & B3).
  assert (tx = nx) by congruence. subst tx.
  destruct B3 as [(B3 & _) | B3]; [congruence|]. exfalso. eapply NB; eauto.
Qed.

(* R2 with a newer request nx of the same tag: the list of the older request is appended to
   the list of nx; the older request is finished by then, so its flushers may follow those of nx *)
Lemma AInv_step_R2link : forall c s fi f q nx s' sq, reach c s -> AInv s sq ->
  Step c s (LR fi) s' ->
  nth_error (F s) fi = Some f -> getq s (f_req f) = Some q -> f_pc f = R2 -> q_prev q = Some nx ->
  AInv s' sq.
Proof.
  intros c s fi f q nx s' sq Rc A H Hn Hq Hpc Hp.
  pose proof (reach_WF c s Rc) as W. pose proof (reach_GInv c s Rc) as G.
  assert (Aft : qo s nx q_after = Some (f_req f)) by (eapply (g_prev s G); eauto).
  assert (Live : ~ won_past s (f_req f) 4).
  { apply (not_past s f 4 G (nth_error_In _ _ Hn)); rewrite Hpc; simpl; auto. }
  assert (NB : forall tz, ~ below s nx tz).
  { intros tz (a & B1 & B2 & _). assert (a = f_req f) by congruence. subst. auto. }
  assert (Dead' : won_past s' (f_req f) 4).
  { destruct (step_frame_at _ _ _ _ _ _ H Hn) as (f' & Hn' & [(_ & St) | (X & _)]); [|congruence].
    exists f'. split; [eapply nth_error_In; eauto|].
    destruct (fstep_adv _ _ _ _ St) as (Er & _ & Keep). destruct Keep as (Kw & _); [congruence|].
    rewrite Kw. repeat split; auto.
    - apply (g_w1 s G f (nth_error_In _ _ Hn)). rewrite Hpc. reflexivity.
    - inversion St; try congruence; subst; simpl; lia. }
  (* whatever heads the list of the older request may follow the list of nx *)
  assert (NewB : forall fr, q_flushreq q = Some fr -> exists th, qo s' fr q_target = Some th /\ below s' nx th).
  { intros fr Hfr. destruct (a_head s sq A _ _ _ Hq Hfr) as (th & B1 & B2).
    exists th. split; [eapply target_mono; eauto|].
    exists (f_req f). repeat split; auto.
    - eapply qo_after_mono; eauto.
    - destruct B2 as [B2 | B2]; [lia|]. pose proof (below_lt c s _ _ Rc B2). lia. }
  destruct (wf_R s W _ _ Hq) as (_ & Wp & _). destruct (getq_some s nx (Wp _ Hp)) as (qn & Hqn).
  pose proof (step_R2link _ _ _ _ _ _ _ _ H Hn Hpc Hq Hp Hqn) as Rl.
  eapply AInv_update; eauto.
  - (* edges: the last of the list of nx gets the head of the list of the older request behind it *)
    intros x qx' z Hg Hz. rewrite Rl in Hg. destruct (getq s x) as [qx|] eqn:Hqx; inversion Hg. subst qx'.
    simpl in Hz. destruct (q_flushreq q) as [fr|] eqn:Efr; [|left; eauto].
    destruct (q_flushreq qn) as [h|] eqn:Eh; [|left; eauto].
    destruct (Nat.eqb_spec (chain_last (length (R s)) (R s) h) x) as [<- | Ne]; [|left; eauto].
    inversion Hz; subst z. right. destruct (NewB fr eq_refl) as (th & T1 & T2).
    exists nx, th. repeat split; auto. eapply target_mono; eauto.
    apply (chain_last_pure s sq nx A NB).
    destruct (a_head s sq A _ _ _ Hqn Eh) as (th0 & C1 & [C2 | C2]); [congruence|]. elim (NB _ C2).
  - (* heads: nx takes over the list of the older request if it has none itself *)
    intros t qt' h0 Hg Hh. rewrite Rl in Hg. destruct (getq s t) as [qt|] eqn:Hqt; inversion Hg. subst qt'.
    simpl in Hh. destruct (Nat.eqb_spec nx t) as [<- | Ne]; [|left; eauto].
    assert (qt = qn) by congruence. subst qt.
    destruct (q_flushreq qn) as [h|] eqn:Eh; [left; exists qn; split; congruence|].
    right. destruct (NewB h0 Hh) as (th & T1 & T2). exists th. auto.
Qed.

(* every other step: links stay, except that a flush at F1 becomes the head of its target's
   list, followed by the old head; its rank is one more than the old head's *)
Lemma AInv_step_other : forall c s l s' sq, reach c s -> AInv s sq -> Step c s l s' -> ~ is_relink s l ->
  exists sq', AInv s' sq'.
Proof.
  intros c s l s' sq Rc A H NR. pose proof (reach_WF c s Rc) as W.
  set (sq' := match l with
              | LF1 r => fun y => if y =? r
                           then S (match qo s' r q_flushnext with Some h => sq h | None => 0 end) else sq y
              | _ => sq end).
  assert (Sq : forall y, qo s y q_target <> None -> sq' y = sq y).
  { intros y Hy. unfold sq'. destruct l; auto. destruct (Nat.eqb_spec y r) as [-> | Ne]; auto. exfalso.
    apply Hy. eapply F1_no_target; eauto. }
  exists sq'. eapply AInv_update; eauto.
  - intros x qx' z Hg Hz.
    destruct (step_getq _ _ _ _ W H _ _ Hg) as [(qx & Hq & M) | (_ & tag & k & -> & -> & ->)]; [|discriminate].
    destruct (qmove_links _ _ _ _ _ _ Hq M) as (_ & [E | [(-> & Hpc & t & qt & Hqt & Ht & E) | X]]);
      [left; exists qx; split; congruence | | contradiction].
    (* the flusher x takes the old head z of its target's list behind it *)
    right. rewrite E in Hz. destruct (a_head s sq A _ _ _ Hqt Hz) as (th & B1 & B2).
    assert (Nz : z <> x).
    { intros ->. rewrite (qo_getq _ _ _ _ Hq) in B1.
      rewrite (pre_no_target _ _ _ _ Rc Hq) in B1; [discriminate | rewrite Hpc; exact I]. }
    exists t, th. repeat split.
    + unfold qo. rewrite Hg. auto.
    + eapply target_mono; eauto.
    + destruct B2 as [-> | B2]; [left | right; eapply below_mono; eauto]. split; auto.
      unfold sq'. rewrite Nat.eqb_refl. apply Nat.eqb_neq in Nz. rewrite Nz.
      unfold qo. rewrite Hg, E, Hz. lia.
  - intros t qt' h Hg Hh.
    destruct (step_getq _ _ _ _ W H _ _ Hg) as [(qt & Hq & M) | (_ & tag & k & -> & -> & ->)]; [|discriminate].
    destruct (qmove_links _ _ _ _ _ _ Hq M) as ([E | [(f & -> & E) | X]] & _);
      [left; exists qt; split; congruence | | contradiction].
    (* the target t has the flusher h as its new head *)
    right. assert (h = f) by congruence. subst h. exists t. split; auto.
    destruct (F1_new_head _ _ _ _ _ _ _ W H Hq Hg E) as (qr' & Hr' & Ht & _).
    { intro X. destruct (a_head s sq A _ _ _ Hq X) as (th & B1 & _).
      rewrite (F1_no_target _ _ _ _ Rc H) in B1. discriminate. }
    unfold qo. rewrite Hr'. auto.
Qed.

Lemma AInv_step : forall c s l s' sq, reach c s -> AInv s sq -> Step c s l s' -> exists sq', AInv s' sq'.
Proof.
  intros c s l s' sq Rc A H.
  destruct (step_frames _ _ _ _ H) as (_ & _ & [(Nl & _) | (fi & f & f' & -> & Hn & St & _)]).
  - eapply AInv_step_other; eauto. intros (fi & _ & _ & _ & X & _). elim (Nl fi X).
  - destruct St; try (eapply AInv_step_other; eauto;
      intros (fi0 & f0 & q0 & nx0 & X & Y1 & Y2 & Y3 & Y4); inversion X; subst; congruence).
    exists sq. eapply AInv_step_R2link; eauto.
Qed.

Lemma reach_AInv : forall c s, reach c s -> exists sq, AInv s sq.
Proof.
  intros c. apply (reach_inv c (fun s => exists sq, AInv s sq)).
  - exists (fun _ => 0). constructor; simpl; intros; try contradiction; destruct x || destruct t; discriminate.
  - intros s l s' Rc (sq & A) H. eapply AInv_step; eauto.
Qed.

(* invocation fi can be run to its end by its own steps and those of the send goroutine *)
Definition own_or_send (fi : nat) (l : label) : bool :=
  match l with LR x => x =? fi | LSend => true | _ => false end.

Definition Fin (c : cfg) (fi : nat) (s : st) : Prop :=
  exists ls s', Forall (fun l => own_or_send fi l = true) ls /\ run c s ls = Some s' /\
                exists f', nth_error (F s') fi = Some f' /\ f_pc f' = RDone.

Lemma fin_now : forall c fi s f, nth_error (F s) fi = Some f -> f_pc f = RDone -> Fin c fi s.
Proof. intros. exists [], s. repeat split; eauto. Qed.

Lemma fin_step : forall c fi s l s1, step c s l = Some s1 -> own_or_send fi l = true -> Fin c fi s1 -> Fin c fi s.
Proof.
  intros c fi s l s1 Hs Hl (ls & s' & A & B & C). exists (l :: ls), s'. repeat split; auto.
  simpl. rewrite Hs. auto.
Qed.

Lemma take_lr : forall c s fi f, reach c s -> nth_error (F s) fi = Some f -> f_pc f <> RDone ->
  (f_pc f = R4 -> f_sflush f = true \/ closed s = true \/ room c s = true) ->
  exists s1 f1, step c s (LR fi) = Some s1 /\ reach c s1 /\ Step c s (LR fi) s1 /\
                closed s1 = closed s /\ nth_error (F s1) fi = Some f1 /\ fstep c s f f1.
Proof.
  intros c s fi f Rc Hn Hpc H4.
  pose proof (LR_enabled c s fi f (reach_WF c s Rc) Hn Hpc H4) as E.
  destruct (step c s (LR fi)) as [s1|] eqn:Hs; [|congruence].
  pose proof (step_Step _ _ _ _ Hs) as St.
  destruct (step_frame_at _ _ _ _ _ _ St Hn) as (f1 & Hn1 & [(_ & Fs) | (X & _)]); [|congruence].
  exists s1, f1. repeat split; auto; [eapply reach_step; eauto|].
  remember (LR fi) as l. globals_cases St; try discriminate; auto.
Qed.

(* goal: Fin c fi s, with Rc : reach c s and Hn : nth_error (F s) fi = Some f, f not at R4 or RDone.
   Takes the next step of the invocation; the goal becomes Fin c fi s1 for the successor state. *)
Ltac one_step Rc Hn :=
  let s1 := fresh "s1" in let f1 := fresh "f1" in let Hs := fresh "Hs" in let Rc1 := fresh "Rc1" in
  let St := fresh "St" in let Cl1 := fresh "Cl1" in let Hn1 := fresh "Hn1" in let Fs := fresh "Fs" in
  destruct (take_lr _ _ _ _ Rc Hn) as (s1 & f1 & Hs & Rc1 & St & Cl1 & Hn1 & Fs);
    [simpl; congruence | simpl; intros; (congruence || auto) |];
  apply (fin_step _ _ _ _ s1 Hs); [simpl; apply Nat.eqb_refl|].

(* along the links the target gets smaller, or stays and the rank gets smaller *)
Definition dec_ok (s : st) (sq : nat -> nat) : Prop :=
  forall x qx z, getq s x = Some qx -> q_flushnext qx = Some z ->
    exists tx tz, qo s x q_target = Some tx /\ qo s z q_target = Some tz /\ (tz < tx \/ (tz = tx /\ sq z < sq x)).

Lemma AInv_dec : forall c s sq, reach c s -> AInv s sq -> dec_ok s sq.
Proof.
  intros c s sq Rc A x qx z Hx Hz.
  destruct (a_edge s sq A x qx z Hx Hz) as (tx & tz & B1 & B2 & B3).
  exists tx, tz. repeat split; auto. destruct B3 as [B3 | B3]; auto.
  left. eapply below_lt; eauto.
Qed.

Section Loop.
  Variables (c : cfg) (fi : nat) (s0 : st) (sq : nat -> nat).
  Hypothesis D : dec_ok s0 sq.

  Lemma loop_done : forall s f, reach c s -> nth_error (F s) fi = Some f -> f_pc f = R6 -> f_cur f = None ->
    Fin c fi s.
  Proof.
    intros s f Rc Hn Hpc Hc. one_step Rc Hn.
    inversion Fs; try congruence. subst f1. eapply fin_now; eauto.
  Qed.

  (* at R6, about to answer x; the requests are those of s0 *)
  Lemma loop_all : forall tx m s f x, reach c s -> closed s = false -> (forall j, getq s j = getq s0 j) ->
    nth_error (F s) fi = Some f -> f_pc f = R6 -> f_cur f = Some x ->
    qo s0 x q_target = Some tx -> sq x = m -> Fin c fi s.
  Proof.
    induction tx as [tx IHt] using lt_wf_ind. induction m as [m IHm] using lt_wf_ind.
    intros s f x Rc Hcl HR Hn Hpc Hc Ht Hm.
    (* R6 -> R7 *)
    one_step Rc Hn. inversion Fs; try congruence. subst f1.
    pose proof (step_R67 _ _ _ _ _ (reach_WF _ _ Rc) St Hn (or_introl Hpc)) as HR1.
    (* R7 -> R6 *)
    one_step Rc1 Hn1. inversion Fs0; try discriminate. simpl in *. subst f1.
    pose proof (step_R67 _ _ _ _ _ (reach_WF _ _ Rc1) St0 Hn1 (or_intror eq_refl)) as HR2.
    assert (x0 = x) by congruence. subst x0. inversion Hcur0; subst x1.
    assert (Hqx0 : getq s0 x = Some qx) by (rewrite <- HR, <- HR1; auto).
    assert (HR' : forall j, getq s2 j = getq s0 j) by (intro j; rewrite HR2, HR1; auto).
    destruct (q_flushnext qx) as [z|] eqn:Ez; [|eapply loop_done; eauto].
    destruct (D x qx z Hqx0 Ez) as (tx0 & tz & B1 & B2 & B3).
    assert (tx0 = tx) by congruence. subst tx0.
    destruct B3 as [B3 | (B3 & B4)].
    - eapply (IHt tz B3 (sq z) s2 _ z); eauto; congruence.
    - subst tz. assert (Lt : sq z < m) by lia. eapply (IHm (sq z) Lt s2 _ z); eauto; congruence.
  Qed.
End Loop.

Lemma fin_R6 : forall c fi s f, reach c s -> closed s = false ->
  nth_error (F s) fi = Some f -> f_pc f = R6 -> Fin c fi s.
Proof.
  intros c fi s f Rc Hcl Hn Hpc. destruct (f_cur f) as [x|] eqn:Hc; [|eapply loop_done; eauto].
  destruct (reach_AInv c s Rc) as (sq & A).
  pose proof (a_cur s sq A f x (nth_error_In _ _ Hn) Hc) as T.
  destruct (qo s x q_target) as [tx|] eqn:E; [|congruence].
  eapply (loop_all c fi s sq (AInv_dec c s sq Rc A) tx (sq x)); eauto.
Qed.

Lemma fin_R7 : forall c fi s f, reach c s -> closed s = false ->
  nth_error (F s) fi = Some f -> f_pc f = R7 -> Fin c fi s.
Proof.
  intros c fi s f Rc Hcl Hn Hpc. one_step Rc Hn.
  inversion Fs; try congruence. subst f1. eapply fin_R6; eauto; congruence.
Qed.

Lemma fin_R5 : forall c fi s f, reach c s -> closed s = false ->
  nth_error (F s) fi = Some f -> f_pc f = R5 -> Fin c fi s.
Proof.
  intros c fi s f Rc Hcl Hn Hpc. one_step Rc Hn.
  inversion Fs; try congruence. subst f1. eapply fin_R6; eauto; congruence.
Qed.

Lemma fin_R2 : forall c fi s f, reach c s -> closed s = false ->
  nth_error (F s) fi = Some f -> f_pc f = R2 -> Fin c fi s.
Proof.
  intros c fi s f Rc Hcl Hn Hpc. one_step Rc Hn.
  inversion Fs; try congruence; subst f1; eapply fin_R5; eauto; congruence.
Qed.

(* at R4 the send goroutine makes room *)
Lemma fin_R4 : forall c fi n s f, length (outq s) <= n -> reach c s -> closed s = false ->
  nth_error (F s) fi = Some f -> f_pc f = R4 -> Fin c fi s.
Proof.
  intros c fi. induction n; intros s f Ln Rc Hcl Hn Hpc; destruct (room c s) eqn:Rm.
  1, 3: one_step Rc Hn; inversion Fs; try congruence; subst f1; eapply fin_R2; eauto; congruence.
  all: destruct (outq s) as [|x rest] eqn:Eo; [unfold room in Rm; rewrite Eo in Rm; discriminate | simpl in Ln; try lia].
  destruct (send_step c s x rest (reach_WF c s Rc) Hcl Eo) as (qx & Hs).
  eapply fin_step; [exact Hs | reflexivity |].
  eapply (IHn _ f); eauto; [simpl; lia | eapply reach_step; eauto].
Qed.

Lemma fin_R3 : forall c fi s f, reach c s -> closed s = false ->
  nth_error (F s) fi = Some f -> f_pc f = R3 -> Fin c fi s.
Proof.
  intros c fi s f Rc Hcl Hn Hpc. one_step Rc Hn. inversion Fs; try congruence. subst f1.
  eapply (fin_R4 c fi (length (outq s1))); eauto; congruence.
Qed.

Lemma fin_all : forall c fi s f, reach c s -> closed s = false ->
  nth_error (F s) fi = Some f -> Fin c fi s.
Proof.
  intros c fi s f Rc Hcl Hn. destruct (f_pc f) eqn:Hpc.
  - one_step Rc Hn. inversion Fs; try congruence. subst f1.
    destruct (q_resp q) eqn:Er; [eapply fin_now; eauto | eapply fin_R3; eauto; congruence].
  - eapply fin_R2; eauto.
  - eapply fin_R3; eauto.
  - eapply (fin_R4 c fi (length (outq s))); eauto.
  - eapply fin_R5; eauto.
  - eapply fin_R6; eauto.
  - eapply fin_R7; eauto.
  - eapply fin_now; eauto.
Qed.
