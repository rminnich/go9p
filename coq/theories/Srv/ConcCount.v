(* Counting invariant: at most one reply per request. *)
From Coq Require Import List Bool PeanoNat Lia.
From V9 Require Import Lib.GoSem Gen.Consts Srv.Conc Srv.ConcInv Srv.ConcStep Srv.ConcWF Srv.ConcMono.
Import ListNotations.

Definition b2n (b : bool) : nat := if b then 1 else 0.

Lemma resp_same : forall c s l s' r, WF s -> Step c s l s' ->
  (forall fi f, l = LR fi -> nth_error (F s) fi = Some f -> f_pc f = R1 -> f_req f <> r) ->
  qb s' r q_resp = qb s r q_resp.
Proof.
  intros c s l s' r W H X. unfold qb. destruct (getq s' r) as [q'|] eqn:Hg.
  - destruct (step_getq _ _ _ _ W H _ _ Hg) as [(q & -> & [-> | Q]) | (-> & tag & k & _ & _ & ->)]; auto.
    destruct Q; auto. elim (X fi f eq_refl Hn Hfp eq_refl).
  - apply nth_error_None in Hg. pose proof (step_length _ _ _ _ H).
    destruct (getq s r) eqn:Hq; auto. apply getq_lt in Hq. lia.
Qed.

Lemma fcount_step : forall c s l s' (p : frame -> bool), Step c s l s' -> (forall x, p (new_frame x) = false) ->
  ((forall i, l <> LR i) /\ length (filter p (F s')) = length (filter p (F s))) \/
  (exists fi f f', l = LR fi /\ nth_error (F s) fi = Some f /\ fstep c s f f' /\
     length (filter p (F s')) + b2n (p f) = length (filter p (F s)) + b2n (p f')).
Proof.
  intros c s l s' p H Hp.
  destruct (step_frames _ _ _ _ H) as (tl & N & [(Nl & E) | (fi & f & f' & -> & Hn & St & E)]);
    rewrite E, filter_app, app_length;
    (replace (filter p tl) with (@nil frame) by (destruct N; simpl; rewrite ?Hp; reflexivity)); simpl.
  - left. split; auto.
  - right. exists fi, f, f'. repeat split; auto. pose proof (filter_len_upd _ p _ _ f' _ Hn). unfold b2n. lia.
Qed.

Definition pre4 (p : fpc) : bool := match p with R3 | R4 => true | _ => false end.
Definition p34 (r : nat) (f : frame) : bool := (f_req f =? r) && pre4 (f_pc f).
Definition cnt34 (s : st) (r : nat) : nat := length (filter (p34 r) (F s)).
(* where the reply to r is: with the winning invocation (at R3 or R4), in the queue, on the wire *)
Definition NN (s : st) (r : nat) : nat := cnt34 s r + in_outq s r + on_wire s r.

Lemma in_outq_snoc : forall s x r, length (filter (fun y => y =? r) (outq s ++ [x])) = in_outq s r + b2n (x =? r).
Proof. intros. rewrite filter_len_snoc. reflexivity. Qed.

(* R1 creates the reply when it finds reqResponded clear; R4 drops it when the request was flushed
   or the connection is closed; every other step keeps it or moves it on. *)
Lemma NN_step : forall c s l s' r, WF s -> Step c s l s' ->
  (NN s' r = NN s r /\ qb s' r q_resp = qb s r q_resp) \/
  (qb s r q_resp = false /\ qb s' r q_resp = true /\ NN s' r = NN s r + 1) \/
  (qb s' r q_resp = qb s r q_resp /\ NN s' r + 1 = NN s r /\
   exists f, In f (F s) /\ f_pc f = R4 /\ f_req f = r /\ (f_sflush f = true \/ closed s = true)).
Proof.
  intros c s l s' r W H.
  pose proof (resp_same _ _ _ _ r W H) as Rs.
  unfold NN, cnt34.
  destruct (fcount_step _ _ _ _ (p34 r) H) as [(Nl & ->) | (fi & f & f' & -> & Hn & St & E)].
  { intro x. unfold p34. simpl. apply andb_false_r. }
  - left. split; [|apply Rs; intros fi f ->; elim (Nl fi); reflexivity].
    unfold in_outq, on_wire. globals_cases H; rewrite Eoq, Ewi; auto; try (elim (Nl fi); reflexivity).
    rewrite Ho, filter_len_snoc. simpl. destruct (r0 =? r); simpl; clear; lia.
  - assert (Same : (in_outq s' r = in_outq s r /\ on_wire s' r = on_wire s r /\
                    (f_pc f = R4 -> f_sflush f = true \/ closed s = true)) \/
                   (f_pc f = R4 /\ in_outq s' r = in_outq s r + b2n (f_req f =? r) /\ on_wire s' r = on_wire s r)).
    { unfold in_outq, on_wire. remember (LR fi) as l eqn:El.
      globals_cases H; try discriminate El; rewrite Eoq, Ewi.
      - subst l. left. repeat split; auto. apply (Hl f Hn).
      - inversion El; subst fi0. assert (f0 = f) by congruence. subst f0. left. repeat split; auto. congruence.
      - inversion El; subst fi0. assert (f0 = f) by congruence. subst f0.
        right. rewrite filter_len_snoc. auto. }
    assert (P : forall g, p34 r g = (f_req g =? r) && pre4 (f_pc g)) by reflexivity.
    assert (Rs' : f_pc f <> R1 -> qb s' r q_resp = qb s r q_resp).
    { intro X. apply Rs. intros fi0 f0 Y1 Y2 Y3. inversion Y1; subst. congruence. }
    rewrite !P in E. destruct St; rewrite Hfp in *; simpl in E; rewrite ?andb_false_r, ?andb_true_r in E;
      simpl in E.
    all: try solve [destruct Same as [(-> & -> & _) | (X & _)]; [|discriminate];
                    left; split; [lia | apply Rs'; discriminate]].
    + (* R1 *)
      destruct Same as [(-> & -> & _) | (X & _)]; [|discriminate].
      pose proof (step_R1 _ _ _ _ _ _ H Hn Hfp Hfq) as Hq'.
      destruct (Nat.eqb_spec (f_req f) r) as [<- | Ne]; simpl in E.
      * unfold qb. rewrite Hfq, Hq'. simpl. destruct (q_resp q); simpl in E; [left | right; left]; split; auto; lia.
      * left. split; [lia|]. apply Rs. intros fi0 f0 X Y Z. inversion X; subst. congruence.
    + (* R4 *)
      destruct Same as [(-> & -> & Sk) | (_ & -> & ->)].
      * destruct (Nat.eqb_spec (f_req f) r) as [Er | Ne]; simpl in E;
          [|left; split; [lia | apply Rs'; discriminate]].
        right. right. split; [apply Rs'; discriminate|]. split; [lia|].
        exists f. repeat split; eauto using nth_error_In.
      * left. split; [|apply Rs'; discriminate]. unfold b2n in *. destruct (f_req f =? r); simpl in *; lia.
Qed.

Record CInv (s : st) : Prop := {
  ci_cnt : forall r, NN s r <= 1 /\ (qb s r q_resp = false -> NN s r = 0) /\
                     (qb s r q_resp = true -> NN s r = 1 \/ qb s r q_flush = true \/ closed s = true);
  ci_fr : forall f, In f (F s) -> f_pc f <> R1 ->
                    qb s (f_req f) q_resp = true /\ (f_sflush f = true -> qb s (f_req f) q_flush = true) }.

Lemma CInv_init : CInv init.
Proof.
  constructor; simpl; intros; [|contradiction].
  unfold NN, cnt34, in_outq, on_wire, qb. simpl. destruct r; simpl; repeat split; auto; discriminate.
Qed.

Lemma CInv_step : forall c s l s', reach c s -> CInv s -> Step c s l s' -> CInv s'.
Proof.
  intros c s l s' Rc [C1 C2] H. pose proof (reach_WF _ _ Rc) as W. constructor.
  - intro r. destruct (C1 r) as (A & B & C).
    destruct (NN_step _ _ _ _ r W H) as [(E1 & E2) | [(E1 & E2 & E3) | (E1 & E2 & f & Hi & Hpc & <- & Hf)]].
    + rewrite E1, E2. repeat split; auto. intro X. destruct (C X) as [Y | [Y | Y]]; auto.
      * right. left. eapply qb_mono; eauto.
      * right. right. eapply closed_mono; eauto.
    + rewrite E2, E3, (B E1). repeat split; auto. discriminate.
    + rewrite E1. repeat split; try lia. intros _. right.
      destruct Hf as [Hf | Hf]; [left | right; eapply closed_mono; eauto].
      eapply qb_mono; eauto. apply (C2 f); auto. congruence.
  - intros f' Hi Hpc.
    destruct (step_frame _ _ _ _ _ H Hi) as [Ho | [(fi & f & -> & Hn & St) | (x & -> & _)]].
    + destruct (C2 f' Ho Hpc) as (X1 & X2). split; [|intro Y]; eapply qb_mono; eauto.
    + destruct (fstep_adv _ _ _ _ St) as (Er & _ & Keep). rewrite Er.
      destruct (f_pc f) eqn:Hfp.
      1: { inversion St; try congruence. pose proof (step_R1 _ _ _ _ _ _ H Hn Hfp Hfq) as Hq'.
           unfold qb. rewrite Hq'. simpl. auto. }
      all: destruct Keep as (_ & ->); [discriminate|];
        destruct (C2 f (nth_error_In _ _ Hn)) as (X1 & X2); [congruence|];
        (split; [|intro Y]; eapply qb_mono; eauto).
    + elim Hpc. reflexivity.
Qed.

Lemma reach_CInv : forall c s, reach c s -> CInv s.
Proof. intros c. apply reach_inv; [apply CInv_init | apply CInv_step]. Qed.
