(* The order of replies: tag groups. *)
From Coq Require Import NArith List Bool PeanoNat Lia.
From V9 Require Import Lib.GoSem Gen.Consts Srv.Conc Srv.ConcInv Srv.ConcStep Srv.ConcWF Srv.ConcMono Srv.ConcCount
  Srv.ConcContent Srv.ConcWin Srv.ConcLocal.
Import ListNotations.

Lemma after_lt : forall c s, reach c s -> forall r a, qo s r q_after = Some a -> a < r.
Proof.
  intros c. apply (reach_inv c (fun s => forall r a, qo s r q_after = Some a -> a < r)).
  - intros r a X. destruct r; discriminate.
  - intros s l s' Rc IH H r a. pose proof (reach_WF _ _ Rc) as W. unfold qo.
    destruct (getq s' r) as [q'|] eqn:Hq'; [|discriminate].
    destruct (step_getq _ _ _ _ W H _ _ Hq') as [(q & Hq & M) | (_ & tag & k & -> & -> & ->)].
    + destruct (qmove_evol _ _ _ _ _ _ M) as (_ & _ & -> & _). intro X. apply IH. unfold qo. rewrite Hq. auto.
    + simpl. intro X. apply alookup_In in X. apply (wf_reqs s W) in X. auto.
Qed.

(* once the winner has passed R4 nothing on this request is in {R3,R4} *)
Lemma cnt34_zero : forall s a n, GInv s -> won_past s a n -> 3 <= n -> cnt34 s a = 0.
Proof.
  intros s a n G Wp Hn. unfold cnt34. apply filter_none.
  intros f Hi. unfold p34. destruct (Nat.eqb_spec (f_req f) a) as [<- | Ne]; auto.
  destruct (pre4 (f_pc f)) eqn:E; auto. exfalso.
  apply (not_past s f n G Hi); auto; destruct (f_pc f); simpl in *; try discriminate; auto; lia.
Qed.

Lemma won_past_resp : forall s a n, CInv s -> won_past s a n -> 1 <= n -> qb s a q_resp = true.
Proof.
  intros s a n C (f & Hi & Hr & Hw & Ho) Hn. rewrite <- Hr. apply (ci_fr s C f Hi).
  intro X. rewrite X in Ho. simpl in Ho. lia.
Qed.

Definition fst3 (e : nat * N * option N) : nat := fst (fst e).
(* the sequence of replies: written, then queued *)
Definition SQ (s : st) : list nat := map fst3 (wire s) ++ outq s.

Lemma In_SQ : forall s r, In r (SQ s) <-> In r (map fst3 (wire s)) \/ In r (outq s).
Proof. intros. apply in_app_iff. Qed.

Lemma SQ_step : forall c s l s', Step c s l s' ->
  SQ s' = SQ s \/
  exists f, In f (F s) /\ f_pc f = R4 /\ f_sflush f = false /\ SQ s' = SQ s ++ [f_req f].
Proof.
  intros c s l s' H. unfold SQ. globals_cases H; rewrite Eoq, Ewi; auto.
  - right. exists f. rewrite app_assoc. eauto using nth_error_In.
  - left. rewrite Ho, map_app. simpl. rewrite <- app_assoc. reflexivity.
Qed.

Lemma SQ_hb : forall c s, reach c s -> forall b, In b (SQ s) -> qb s b hb = true.
Proof.
  intros c. apply (reach_inv c (fun s => forall b, In b (SQ s) -> qb s b hb = true)).
  - intros b [].
  - intros s l s' Rc IH H b Hi. pose proof (reach_WF _ _ Rc) as W.
    apply (qb_hb_mono _ _ _ _ _ W H).
    destruct (SQ_step _ _ _ _ H) as [E | (f & Hf & Hpc & Hsf & E)]; rewrite E in Hi; auto.
    apply in_app_or in Hi. destruct Hi as [Hi | [<- | []]]; auto.
    destruct (b_fr s (reach_BInv c s Rc) f Hf) as (_ & X & _). apply X; auto. congruence.
Qed.

Fixpoint idx (l : list nat) (r : nat) : option nat :=
  match l with
  | [] => None
  | x :: t => if x =? r then Some 0 else match idx t r with Some i => Some (S i) | None => None end
  end.

Lemma idx_In : forall l r, In r l <-> idx l r <> None.
Proof.
  induction l; simpl; intros.
  - split; [contradiction | congruence].
  - destruct (a =? r) eqn:E.
    + apply Nat.eqb_eq in E. split; intros; [discriminate | auto].
    + apply Nat.eqb_neq in E. specialize (IHl r). destruct (idx l r) eqn:E2.
      * split; intros; [discriminate | right; apply IHl; discriminate].
      * split; intros; [destruct H; [congruence | apply IHl in H; congruence] | congruence].
Qed.

Lemma idx_lt : forall l r i, idx l r = Some i -> i < length l.
Proof.
  induction l; simpl; intros; [discriminate|].
  destruct (a =? r); [inversion H; lia|].
  destruct (idx l r) eqn:E; [|discriminate]. inversion H. specialize (IHl _ _ E). lia.
Qed.

Lemma idx_app_l : forall l l' r i, idx l r = Some i -> idx (l ++ l') r = Some i.
Proof.
  induction l; simpl; intros; [discriminate|].
  destruct (a =? r); auto.
  destruct (idx l r) eqn:E; [|discriminate]. rewrite (IHl l' r n E). auto.
Qed.

Lemma idx_app_r : forall l l' r, idx l r = None ->
  idx (l ++ l') r = match idx l' r with Some i => Some (length l + i) | None => None end.
Proof.
  induction l; simpl; intros.
  - destruct (idx l' r); auto.
  - destruct (a =? r); [discriminate|].
    destruct (idx l r) eqn:E; [discriminate|]. rewrite (IHl l' r E). destruct (idx l' r); auto.
Qed.

Lemma wire_index_idx : forall s r, wire_index s r = idx (map fst3 (wire s)) r.
Proof.
  intros. unfold wire_index.
  assert (X : forall l k,
    (fix go (l : list (nat * N * option N)) (i : nat) : option nat :=
       match l with [] => None | e :: t => if fst (fst e) =? r then Some i else go t (S i) end) l k =
    match idx (map fst3 l) r with Some i => Some (k + i) | None => None end).
  { induction l; simpl; intros; auto. unfold fst3 at 1.
    destruct (fst (fst a) =? r); [f_equal; lia|].
    rewrite IHl. destruct (idx (map fst3 l) r); auto. f_equal. lia. }
  rewrite X. destruct (idx (map fst3 (wire s)) r); auto.
Qed.

Definition ordered (l : list nat) (a b : nat) : Prop :=
  forall i j, idx l a = Some i -> idx l b = Some j -> i < j.

(* appending x keeps the order unless x is a, new, and b is there *)
Lemma ordered_snoc : forall l a b x, ordered l a b ->
  (x = a -> ~ In a l -> ~ In b (l ++ [x])) -> ordered (l ++ [x]) a b.
Proof.
  intros l a b x O C i j Hi Hj. destruct (idx l a) as [i0|] eqn:Ea.
  - rewrite (idx_app_l _ _ _ _ Ea) in Hi. inversion Hi; subst i0.
    destruct (idx l b) as [j0|] eqn:Eb.
    + rewrite (idx_app_l _ _ _ _ Eb) in Hj. inversion Hj; subst. auto.
    + rewrite (idx_app_r _ _ _ Eb) in Hj. apply idx_lt in Ea. destruct (idx [x] b); inversion Hj. lia.
  - exfalso. rewrite (idx_app_r _ _ _ Ea) in Hi. simpl in Hi.
    destruct (Nat.eqb_spec x a) as [E | Ne]; [|discriminate].
    apply (C E); [intro X; apply idx_In in X; congruence | apply idx_In; congruence].
Qed.

(* requests sharing a tag are answered in the order of arrival *)
Definition OInv (s : st) : Prop := forall b a, qo s b q_after = Some a -> ordered (SQ s) a b.

Lemma OInv_step : forall c s l s', reach c s -> OInv s -> Step c s l s' -> OInv s'.
Proof.
  intros c s l s' Rc O H b a Ha. pose proof (reach_WF c s Rc) as W. pose proof (reach_GInv c s Rc) as G.
  assert (Back : In b (SQ s) -> qo s b q_after = Some a).
  { intro Hi. eapply qo_after_back; eauto. eapply qb_true_lt, SQ_hb; eauto. }
  destruct (SQ_step _ _ _ _ H) as [-> | (f & Hf & Hpc & Hsf & ->)].
  - intros i j Hi Hj. apply (O b a); auto. apply Back. apply idx_In. congruence.
  - apply ordered_snoc.
    + intros i j Hi Hj. apply (O b a); auto. apply Back. apply idx_In. congruence.
    + (* the older request is queued only now: the newer one cannot have been answered *)
      intros <- _ Hi. apply in_app_or in Hi. destruct Hi as [Hi | [E | []]].
      * destruct (qo_inv _ _ _ _ (Back Hi)) as (q & Hq & Ha0).
        destruct (g_wait s G _ _ _ Hq Ha0) as [X | X].
        -- apply (RInv_packed_started q (reach_RInv c s Rc _ _ Hq)); auto.
           rewrite <- (qb_getq _ _ _ _ Hq). apply (SQ_hb c s Rc b Hi).
        -- apply (not_past s f 5 G Hf); [rewrite Hpc; reflexivity | rewrite Hpc; simpl; lia | exact X].
      * subst b. assert (Lt : f_req f < length (R s)) by (destruct (wf_F s W f Hf); auto).
        pose proof (after_lt c s Rc _ _ (qo_after_back _ _ _ _ _ _ W H Lt Ha)). lia.
Qed.

Lemma reach_OInv : forall c s, reach c s -> OInv s.
Proof.
  intros c. apply reach_inv; [|apply OInv_step]. intros b a X. destruct b; discriminate.
Qed.
