(* The theorems about the request life-cycle LTS (Srv/Conc.v) that Props/C03, C07, C08 and C11 cite. *)
From Coq Require Import NArith List Bool PeanoNat Lia.
From V9 Require Import Lib.GoSem Gen.Consts Srv.Conc.
From V9 Require Import Srv.ConcInv Srv.ConcStep Srv.ConcWF Srv.ConcMono Srv.ConcCount Srv.ConcContent Srv.ConcWin Srv.ConcLocal Srv.ConcOrder Srv.ConcFlush Srv.ConcCancel Srv.ConcFinish Srv.ConcAnswered.
Import ListNotations.

Definition qget (s : st) (r : nat) (f : rq -> bool) : bool :=
  match getq s r with Some q => f q | None => false end.

(* no request ever shared its tag with another outstanding one *)
Definition NoGroups (s : st) : Prop :=
  forall r q, getq s r = Some q -> q_after q = None /\ q_prev q = None /\ q_next q = None.

Lemma NoGroups_NG : forall s, NoGroups s -> NG s.
Proof. intros s H r q Hq. apply (H _ _ Hq). Qed.

(* nothing the library can do by itself is enabled *)
Definition quiescent (c : cfg) (s : st) : Prop :=
  forall l, is_internal l = true -> step c s l = None.

(* the implementation has answered every request it was handed *)
Definition all_answered (s : st) : Prop :=
  forall r q, getq s r = Some q -> q_called q = true -> q_resp q = true.

Definition has_frame (s : st) (r : nat) : Prop := exists f, In f (F s) /\ f_req f = r.

Lemma has_frame_iff : forall s r, has_frame s r <-> In r (map f_req (F s)).
Proof.
  intros. unfold has_frame. rewrite in_map_iff. split; intros (f & A & B); exists f; auto.
Qed.

Definition only_labels (p : label -> bool) (ls : list label) : Prop := Forall (fun l => p l = true) ls.

Definition frame_pc (s : st) (fi : nat) : option fpc :=
  match nth_error (F s) fi with Some f => Some (f_pc f) | None => None end.

(* C03, C11: at most one reply per request, however often and from wherever Respond is called *)
Theorem at_most_one_reply : forall c s r,
  reach c s -> on_wire s r + in_outq s r <= 1.
Proof.
  intros c s r H. pose proof (ci_cnt s (reach_CInv c s H) r) as (A & _).
  unfold NN in A. lia.
Qed.

(* C03: every reply carries the tag of a request that was received, and something was packed for it *)
Theorem reply_tag_and_content : forall c s r tag v,
  reach c s -> In (r, tag, v) (wire s) ->
  exists q, getq s r = Some q /\ q_tag q = tag /\
            exists x, v = Some x /\ In x (q_packs q).
Proof.
  intros c s r tag v H Hi.
  destruct (b_wire s (reach_BInv c s H) _ Hi) as (q & Hq & T & x & E & I).
  simpl in *. eauto 8.
Qed.

(* C03: with a single answer the content is exactly that answer *)
Corollary reply_content_exact : forall c s r tag v q x,
  reach c s -> In (r, tag, v) (wire s) -> getq s r = Some q -> q_packs q = [x] -> v = Some x.
Proof.
  intros c s r tag v q x H Hi Hq Hp.
  destruct (reply_tag_and_content c s r tag v H Hi) as (q' & Hq' & _ & y & -> & I).
  assert (q' = q) by congruence. subst. rewrite Hp in I. destruct I as [-> | []]. reflexivity.
Qed.

(* C03: at quiescence, on an open connection, every request that was answered (by the
   framework or the implementation) and not cancelled has exactly one reply on the wire *)
Theorem exactly_one_at_quiescence : forall c s r q,
  reach c s -> quiescent c s -> closed s = false ->
  getq s r = Some q -> q_flush q = false -> has_frame s r ->
  on_wire s r = 1.
Proof.
  intros c s r q H Q Hc Hq Hfl (f & Hf & Hr). pose proof (reach_CInv c s H) as CI.
  destruct (quiet_done c s H Q Hc) as (O & D).
  pose proof (ci_fr s CI f Hf) as (A & _). { rewrite (D f Hf). discriminate. }
  rewrite Hr in A.
  pose proof (ci_cnt s CI r) as (_ & _ & C). destruct (C A) as [X | [X | X]].
  - unfold NN, cnt34, in_outq in X. rewrite O in X. simpl in X.
    rewrite filter_none in X; [simpl in X; lia|].
    intros w Hw. unfold p34. rewrite (D w Hw). apply andb_false_r.
  - rewrite (qb_getq _ _ _ _ Hq) in X. congruence.
  - congruence.
Qed.

(* C07: if both the target's reply and the Rflush are sent, the reply comes first *)
Theorem reply_before_rflush : forall c s f t qf i j,
  reach c s -> NoGroups s ->
  getq s f = Some qf -> q_target qf = Some t ->
  wire_index s f = Some i -> wire_index s t = Some j -> j < i.
Proof.
  intros c s f t qf i j H NGr Hq Ht Hi Hj. rewrite wire_index_idx in Hi, Hj.
  assert (Hin : In f (SQ s)).
  { apply In_SQ. left. apply idx_In. congruence. }
  destruct (reach_FOInv c s H (NoGroups_NG s NGr) f t) as (_ & B); auto.
  { unfold qo. rewrite Hq. auto. }
  apply B; unfold SQ; apply idx_app_l; auto.
Qed.

(* C07: once the Rflush is on the wire without a preceding reply, the target is never
   handed to the implementation afterwards and never answered *)
Theorem rflush_means_cancelled : forall c s f t qf qt,
  reach c s -> NoGroups s ->
  getq s f = Some qf -> q_target qf = Some t -> getq s t = Some qt ->
  1 <= on_wire s f -> on_wire s t = 0 ->
  forall ls s', run c s ls = Some s' ->
    on_wire s' t = 0 /\ in_outq s' t = 0 /\
    (forall qt', getq s' t = Some qt' -> q_called qt' = q_called qt).
Proof.
  intros c s f t qf qt H NGr Hf Ht Hqt Wf Wt ls s' Hr.
  (* now: the winner of t is past R4 and t is neither queued nor written *)
  assert (Hin : In f (map fst3 (wire s))).
  { destruct (in_dec Nat.eq_dec f (map fst3 (wire s))); auto. apply on_wire_zero in n. lia. }
  destruct (reach_FOInv c s H (NoGroups_NG s NGr) f t) as (Wp & Ord).
  { unfold qo. rewrite Hf. auto. }
  { apply In_SQ. auto. }
  assert (Gn : gone s t).
  { split; auto. intro Hi.
    destruct (idx (SQ s) t) as [j|] eqn:Ej; [|apply idx_In in Hi; congruence].
    destruct (idx (map fst3 (wire s)) f) as [i|] eqn:Ei; [|apply idx_In in Hin; congruence].
    pose proof (Ord _ _ Ej (idx_app_l _ (outq s) _ _ Ei)) as Lj. apply idx_lt in Ei.
    apply on_wire_zero in Wt. apply Wt. apply idx_In. unfold SQ in Ej.
    destruct (idx (map fst3 (wire s)) t) eqn:E; [congruence|]. exfalso.
    rewrite (idx_app_r _ _ _ E) in Ej. destruct (idx (outq s) t); inversion Ej. lia. }
  (* for ever: it stays so, and the request stays as it is with the implementation *)
  pose (P := fun s1 => gone s1 t /\ exists q1, getq s1 t = Some q1 /\ q_called q1 = q_called qt /\
                                            (q_called qt = false -> uncalled q1)).
  assert (Ps : P s).
  { split; auto. exists qt. split; auto. split; auto. intro Cl. split; auto.
    apply (reach_ZInv c s H _ _ Hqt); auto.
    left. destruct Wp as (w & Hw & <- & _). apply in_map. auto. }
  assert (Ps' : P s').
  { apply (run_inv c P) with (ls := ls) (s := s); auto. unfold P. clear.
    intros s l s' Rc (Gn & q1 & Hq1 & Cl & Uc) St. split; [eapply gone_step; eauto|].
    destruct (step_evol _ _ _ _ (reach_WF _ _ Rc) St _ _ Hq1) as (q2 & Hq2 & Ev). exists q2. split; auto.
    destruct (q_called qt) eqn:E.
    - split; [|discriminate]. apply Ev. auto.
    - destruct (uncalled_step _ _ _ _ _ _ _ Rc St Hq1 Hq2 (Uc eq_refl)) as (X & Y). split; auto. intros _. split; auto. }
  destruct Ps' as ((_ & Gn') & q1 & Hq1 & Cl & _). repeat split.
  - apply on_wire_zero. intro X. apply Gn', In_SQ. auto.
  - apply in_outq_zero. intro X. apply Gn', In_SQ. auto.
  - intros. congruence.
Qed.

(* C07: a request whose reqFlush bit is set before any goroutine worked on it (cancelled
   by Tflush or by a Tversion) is never handed to the implementation *)
Theorem flushed_before_start_never_called : forall c s t qt,
  reach c s -> getq s t = Some qt -> q_flush qt = true ->
  (q_pc qt = WWait \/ q_pc qt = WSpawned) ->
  q_called qt = false /\
  forall ls s' qt', run c s ls = Some s' -> getq s' t = Some qt' -> q_called qt' = false.
Proof.
  intros c s t qt H Hq Hf Hpc.
  assert (Uc : uncalled qt).
  { split; [|split; [destruct Hpc; congruence | auto]].
    destruct (q_called qt) eqn:E; auto.
    destruct (ri_called qt (reach_RInv c s H _ _ Hq) E) as (_ & X). elim X. exact Hpc. }
  split; [apply Uc|]. intros ls s' qt' Hr Hq'.
  pose (P := fun s1 => exists q1, getq s1 t = Some q1 /\ uncalled q1).
  assert (Ps' : P s').
  { apply (run_inv c P) with (ls := ls) (s := s); unfold P; eauto. clear.
    intros s l s' Rc (q1 & Hq1 & Uc) St.
    destruct (step_evol _ _ _ _ (reach_WF _ _ Rc) St _ _ Hq1) as (q2 & Hq2 & _).
    exists q2. split; auto. eapply uncalled_step; eauto. }
  destruct Ps' as (q1 & Hq1 & X & _). congruence.
Qed.

(* C07: the flush handler sets reqFlush on a target only if no goroutine has worked on it *)
Theorem flush_cancels_only_unstarted : forall c s f t qf s',
  reach c s -> getq s f = Some qf -> q_pc qf = WF2 t -> step c s (LF2 f) = Some s' ->
  forall qt qt', getq s t = Some qt -> getq s' t = Some qt' ->
  (q_flush qt' = true /\ q_flush qt = false) -> (q_pc qt' = WWait \/ q_pc qt' = WSpawned \/ q_resp qt' = true).
Proof.
  intros c s f t qf s' H Hf Hpc Hs qt qt' Ht Ht' (A & B). apply step_Step in Hs.
  pose proof (reach_WF c s H) as W. pose proof (RInv_status qt (reach_RInv c s H _ _ Ht)) as L.
  assert (Wk : q_work qt || q_saved qt = false /\ (q_pc qt' = q_pc qt \/ t = f)).
  { destruct (step_getq_old _ _ _ _ _ _ _ W Hs Ht Ht') as [-> | Q]; [congruence|].
    inversion Q; subst; simpl in *; try congruence; auto. }
  destruct Wk as (Wk & Pc). apply orb_false_elim in Wk. destruct Wk as (Wk & Sv).
  destruct L as [L | [L | [L | [L | L]]]]; try congruence.
  - right. right. destruct (step_evol _ _ _ _ W Hs _ _ Ht) as (q2 & Hq2 & Ev). assert (q2 = qt') by congruence.
    subst q2. apply Ev. auto.
  - destruct Pc as [-> | ->]; [destruct L; auto|].
    assert (qf = qt) by congruence. subst qf. destruct L; congruence.
Qed.

(* C07: every Tflush is answered: at quiescence, with everything handed to the
   implementation answered, each flush request that ran has exactly one Rflush, provided
   that the request found under oldtag is not itself a flush request
   ([flush_answered_once_corrected]; for chains of flush requests see Srv/ConcFlushChain.v).

   Without the last hypothesis this is false: a Tflush whose oldtag is its own tag (or
   two Tflush naming each other) finds a flush request under oldtag, chains itself onto
   it and leaves the answer to that request's Respond, which never comes.
   [flush_answered_once_counterexample] is such a run:
   LArrive 1 (KFlush 1); LWStart 0; LF1 0; LWTail 0
   (a target that is itself a Tflush is not touched: Srv.flush returns right after
   chaining, so there is no LF2 / LF3 for this flusher).
   A Tflush naming another, not yet started Tflush does not suppress the latter's
   Rflush: [flush_of_flush_both_answered] below. *)
Definition cex_cfg : cfg := mkCfgC 4 false.
Definition cex_run : list label :=
  [LArrive 1%N (KFlush 1%N); LWStart 0; LF1 0; LWTail 0].
Definition cex_rq : rq :=
  mkRq 1%N (KFlush 1%N) false false false true (Some 0) None None (Some 1%N) WDone false false
       [1%N] (Some 0) None None.
Definition cex_st : st := mkSt [(1%N, 0)] [cex_rq] [] [] [] RvOpen false [].

Lemma flush_answered_once_counterexample :
  run cex_cfg init cex_run = Some cex_st /\
  reach cex_cfg cex_st /\ quiescent cex_cfg cex_st /\ closed cex_st = false /\ NoGroups cex_st /\
  all_answered cex_st /\
  getq cex_st 0 = Some cex_rq /\ q_kind cex_rq = KFlush 1%N /\ q_flush cex_rq = false /\
  q_pc cex_rq = WDone /\ on_wire cex_st 0 = 0.
Proof.
  assert (Rn : run cex_cfg init cex_run = Some cex_st) by (vm_compute; reflexivity).
  split; auto. split; [eapply run_reach; [apply reach_init | exact Rn]|].
  split.
  { intros l Hl. destruct l; simpl in Hl; try discriminate; try reflexivity;
      try (destruct r as [|r]; [reflexivity | destruct r; reflexivity]).
    destruct f; reflexivity. }
  split; [reflexivity|]. split.
  { intros r q Hq. destruct r as [|r]; [inversion Hq; subst; auto | destruct r; discriminate]. }
  split.
  { intros r q Hq Hc. destruct r as [|r]; [inversion Hq; subst; discriminate | destruct r; discriminate]. }
  repeat split; reflexivity.
Qed.

Theorem flush_answered_once_corrected : forall c s f qf old,
  reach c s -> quiescent c s -> closed s = false -> NoGroups s -> all_answered s ->
  getq s f = Some qf -> q_kind qf = KFlush old -> q_flush qf = false ->
  (q_pc qf = WDone \/ exists t, q_pc qf = WInFlushOp t) ->
  (forall t qt, q_target qf = Some t -> getq s t = Some qt -> q_kind qt = KOp \/ q_kind qt = KVersion) ->
  on_wire s f = 1.
Proof.
  intros c s f qf old H Q Hc NGr AA Hf Hk Hfl Hpc NF.
  eapply exactly_one_at_quiescence; eauto. apply has_frame_iff.
  apply (flush_responded_on c s H Q Hc (NoGroups_NG s NGr) AA f qf Hf); [exists old; auto|].
  intros t qt Ht Hqt (o & K). destruct (NF t qt Ht Hqt); congruence.
Qed.

(* A Tflush naming another Tflush that has not started yet does not cancel it (Srv.flush
   returns right after chaining when the target is itself a Tflush): request 0 (tag 5) is
   with the implementation; request 1 (tag 20) flushes tag 5, request 2 (tag 21) flushes
   tag 20 and runs its F1 while request 1 is still only spawned.  Request 2 goes straight
   to its tail, request 1 then runs normally; when the implementation answers request 0,
   its Respond answers request 1, whose Respond answers request 2: all three replies are
   on the wire, in that order. *)
Definition ff_run_pre : list label :=
  [LArrive 5%N KOp; LWStart 0; LOpCall 0;
   LArrive 20%N (KFlush 5%N); LArrive 21%N (KFlush 20%N);
   LWStart 2; LF1 2].
Definition ff_run_post : list label :=
  [LWTail 2;
   LWStart 1; LF1 1; LF2 1; LF3 1; LWTail 1;
   LAnswer 0 9%N; LOpReturn 0; LWTail 0;
   LR 0; LR 0; LR 0; LR 0; LR 0; LR 0; LR 0; LR 0;
   LR 1; LR 1; LR 1; LR 1; LR 1; LR 1; LR 1; LR 1;
   LR 2; LR 2; LR 2; LR 2; LR 2; LR 2;
   LSend; LSend; LSend].

Example flush_of_flush_both_answered :
  (* after the second flush's F1: the first flush has not started and is not marked flushed,
     the second is chained on it and already past Process() *)
  option_map (fun s => map (fun q => (q_pc q, q_flush q, q_flushreq q, q_target q)) (R s))
             (run cex_cfg init ff_run_pre)
  = Some [(WInOp, false, None, None); (WSpawned, false, Some 2, None); (WTail, false, None, Some 1)] /\
  (* LF2 / LF3 are not enabled for it *)
  option_map (fun s => (step cex_cfg s (LF2 2), step cex_cfg s (LF3 2))) (run cex_cfg init ff_run_pre)
  = Some (None, None) /\
  (* at the end every request has its reply on the wire *)
  option_map wire (run cex_cfg init (ff_run_pre ++ ff_run_post))
  = Some [(0, 5%N, Some 9%N); (1, 20%N, Some v_rflush); (2, 21%N, Some v_rflush)] /\
  option_map (fun s => (on_wire s 1, on_wire s 2)) (run cex_cfg init (ff_run_pre ++ ff_run_post))
  = Some (1, 1).
Proof. repeat split; vm_compute; reflexivity. Qed.

(* C08: a Respond in progress can always be completed by steps of that invocation and
   of the send goroutine alone: no other request, blocked or not, is needed *)
Theorem frame_can_finish : forall c s fi,
  reach c s -> closed s = false -> fi < length (F s) ->
  exists ls s',
    only_labels (fun l => match l with LR x => x =? fi | LSend => true | _ => false end) ls /\
    run c s ls = Some s' /\ frame_pc s' fi = Some RDone.
Proof.
  intros c s fi H Hc Hlt.
  destruct (nth_error (F s) fi) as [f|] eqn:Hn; [|apply nth_error_None in Hn; lia].
  destruct (fin_all c fi s f H Hc Hn) as (ls & s' & A & B & f' & C & D).
  exists ls, s'. repeat split; auto.
  unfold frame_pc. rewrite C, D. reflexivity.
Qed.

(* C08: requests sharing a tag: the newer one is not started before the older one's
   reply has been queued (no flush, no version, connection open) *)
Theorem same_tag_fifo : forall c s a b qb,
  reach c s -> closed s = false ->
  (forall r q, getq s r = Some q -> q_flush q = false /\ q_kind q = KOp) ->
  getq s b = Some qb -> q_after qb = Some a -> q_pc qb <> WWait ->
  on_wire s a + in_outq s a = 1.
Proof.
  intros c s a b qb0 H Hc Hall Hb Ha Hpc.
  pose proof (reach_GInv c s H) as G. pose proof (reach_CInv c s H) as C.
  destruct (g_wait s G _ _ _ Hb Ha) as [X | X]; [congruence|].
  pose proof (won_past_resp s a 5 C X ltac:(lia)) as Rs.
  pose proof (cnt34_zero s a 5 G X ltac:(lia)) as Z.
  destruct (ci_cnt s C a) as (_ & _ & D). destruct (D Rs) as [Y | [Y | Y]].
  - unfold NN in Y. lia.
  - destruct (qb_inv _ _ _ Y) as (qa & E & Fl). destruct (Hall _ _ E). congruence.
  - congruence.
Qed.

(* C08: ... and the replies appear on the wire in arrival order *)
Theorem same_tag_wire_order : forall c s a b qb i j,
  reach c s ->
  (forall r q, getq s r = Some q -> q_flush q = false /\ q_kind q = KOp) ->
  getq s b = Some qb -> q_after qb = Some a ->
  wire_index s a = Some i -> wire_index s b = Some j -> i < j.
Proof.
  intros c s a b qb i j H _ Hb Ha Hi Hj. rewrite wire_index_idx in Hi, Hj.
  apply (reach_OInv c s H b a); [unfold qo; rewrite Hb; auto | |]; unfold SQ; apply idx_app_l; auto.
Qed.

(* C11: after the disconnect nothing is written or received any more, and it happens once *)
Theorem disconnect_final : forall c s,
  reach c s -> closed s = true ->
  step c s LSend = None /\ step c s LDisconnect = None /\ (forall t k, step c s (LArrive t k) = None) /\
  forall l s', step c s l = Some s' -> closed s' = true /\ wire s' = wire s.
Proof.
  intros c s H Hc. pose proof (proj1 (wf_closed s (reach_WF c s H)) Hc) as Hr.
  repeat split; try (intros; unfold step; rewrite ?Hc, ?Hr; reflexivity); apply step_Step in H0.
  - eapply closed_mono; eauto.
  - globals_cases H0; auto. congruence.
Qed.

(* C11: after the disconnect no Respond ever blocks: every unfinished invocation can step *)
Theorem no_respond_blocks_after_close : forall c s fi f,
  reach c s -> closed s = true -> nth_error (F s) fi = Some f -> f_pc f <> RDone ->
  step c s (LR fi) <> None.
Proof. intros c s fi f H Hc Hn Hpc. eapply LR_enabled; eauto using reach_WF. Qed.
