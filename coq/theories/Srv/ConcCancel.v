(* Once the Rflush went out without a reply, the flushed request stays unanswered and uncalled. *)
From Coq Require Import List Bool PeanoNat Lia.
From V9 Require Import Lib.GoSem Gen.Consts Srv.Conc Srv.ConcInv Srv.ConcStep Srv.ConcWF Srv.ConcMono Srv.ConcCount
  Srv.ConcContent Srv.ConcWin Srv.ConcLocal Srv.ConcOrder Srv.ConcFlush.
Import ListNotations.

(* some flush request is about to call Respond on t *)
Definition wf3 (s : st) (t : nat) : Prop := exists g qg, getq s g = Some qg /\ q_pc qg = WF3 t false.

(* a request that was not handed over and is being answered will not be handed over *)
Definition ZInv (s : st) : Prop :=
  forall t qt, getq s t = Some qt -> q_called qt = false -> In t (map f_req (F s)) \/ wf3 s t -> safe qt.

Lemma enters_wf3 : forall c s l g qg qg' t, getq s g = Some qg -> qmove c s l g qg qg' ->
  q_pc qg' = WF3 t false ->
  q_pc qg = WF3 t false \/
  (l = LF2 g /\ q_pc qg = WF2 t /\ exists qt, getq s t = Some qt /\ q_work qt || q_saved qt = false).
Proof.
  intros c s l g qg qg' t Hg [-> | Q] X; auto. destruct Q; simpl in X; try discriminate X; auto.
  - destruct (f1_pc_not qt t0) as (_ & _ & _ & _ & _ & Y & _). elim (Y _ _ X).
  - destruct (f1_pc_not q r) as (_ & _ & _ & _ & _ & Y & _). elim (Y _ _ X).
  - inversion X; subst. eauto 6.
  - inversion X; subst. eauto 6.
Qed.

Lemma ZInv_step : forall c s l s', reach c s -> ZInv s -> Step c s l s' -> ZInv s'.
Proof.
  intros c s l s' Rc Z H t qt' Hq' Cl' Prem.
  pose proof (reach_WF c s Rc) as W. pose proof (reach_GInv c s Rc) as G.
  (* where the invocation, or the flusher about to start one, comes from *)
  assert (Src : In t (map f_req (F s)) \/ wf3 s t \/ starts c s l t \/
                exists g qg qt, l = LF2 g /\ getq s g = Some qg /\ q_pc qg = WF2 t /\
                                getq s t = Some qt /\ q_work qt || q_saved qt = false).
  { destruct Prem as [Hi | (g & qg' & Hg' & Hpc')].
    - apply in_map_iff in Hi. destruct Hi as (f' & <- & Hi).
      destruct (step_frame _ _ _ _ _ H Hi) as [Ho | [(fi & f & _ & Hn & St) | (x & -> & St)]]; [| |simpl; auto].
      + left. apply in_map. auto.
      + left. destruct (fstep_adv _ _ _ _ St) as (-> & _). apply in_map. eapply nth_error_In; eauto.
    - destruct (step_getq _ _ _ _ W H _ _ Hg') as [(qg & Hg & Mg) | (_ & tag & k & _ & _ & ->)].
      2: { simpl in Hpc'. destruct (alookup (reqs s) tag); discriminate. }
      destruct (enters_wf3 _ _ _ _ _ _ _ Hg Mg Hpc') as [X | (-> & Pg & qt & Hq & Wk)].
      + right. left. exists g, qg. auto.
      + right. right. right. exists g, qg, qt. auto. }
  assert (Lt : t < length (R s)).
  { destruct Src as [Hi | [(g & qg & Hg & Pg) | [St | (g & qg & qt & _ & _ & _ & Hqt & _)]]];
      [| |exact (starts_lt _ _ _ _ W St) | exact (getq_lt _ _ _ Hqt)].
    - apply in_map_iff in Hi. destruct Hi as (f & <- & Hi). destruct (wf_F s W f Hi). auto.
    - destruct (wf_R s W _ _ Hg) as (_ & _ & _ & _ & _ & Y & _). apply Y. rewrite Pg. reflexivity. }
  destruct (getq_some s t Lt) as (qt & Hq). pose proof (step_getq_old _ _ _ _ _ _ _ W H Hq Hq') as M.
  assert (Cl : q_called qt = false).
  { destruct (qmove_evol _ _ _ _ _ _ M) as (_ & _ & _ & _ & _ & _ & X & _). destruct (q_called qt); auto.
    rewrite X in Cl'; auto. }
  assert (Post : ~ pre (q_pc qt) -> safe qt').
  { intro NP. pose proof (not_pre_step _ _ _ _ _ _ _ W G H Hq Hq' NP) as NP'. split.
    - intro X. apply NP'. rewrite X. exact I.
    - intros [X | X]; exfalso; apply NP'; rewrite X; exact I. }
  assert (Old : In t (map f_req (F s)) \/ wf3 s t -> safe qt').
  { intro X. apply (safe_step _ _ _ _ _ _ G Hq M), (Z _ _ Hq Cl X). }
  destruct Src as [Hi | [Wf | [St | (g & qg & qt0 & -> & Hg & Pg & Hq0 & Wk)]]]; auto.
  - destruct St.
    all: try solve [destruct (step_actor _ _ _ _ _ _ H eq_refl Hq) as (q1 & Hq1 & Q);
                    assert (q1 = qt') by congruence; subst q1; assert (qt = q) by congruence; subst qt;
                    inversion Q; subst; try congruence;
                    split; simpl; [discriminate | intros [X | X]; discriminate]].
    all: try congruence.
    + apply Old. right. exists r, q. auto.
    + (* the winner of its target calls Respond on a flush request: that has packed its Rflush *)
      apply Post. destruct (b_fr s (reach_BInv c s Rc) f (nth_error_In _ _ Hn)) as (_ & _ & Y).
      specialize (Y _ Hcur). rewrite (qb_getq _ _ _ _ Hq) in Y.
      destruct (ri_packed qt (reach_RInv _ _ Rc _ _ Hq) Y) as [NP | NP]; [auto | congruence].
  - (* F2 sets reqFlush on a request nobody has worked on: if it is in the dispatch, it was answered *)
    assert (qt0 = qt) by congruence. subst qt0.
    destruct (step_F2_flags _ _ _ _ _ _ _ H Hg Pg Hq Wk) as (q1 & Hq1 & E).
    assert (q1 = qt') by congruence. subst q1.
    assert (NP : q_pc qt <> WProc).
    { intro X. apply orb_false_elim in Wk. destruct Wk as (Wk & _).
      destruct (ri_work qt (reach_RInv _ _ Rc _ _ Hq)) as [Y | Y]; [rewrite X; exact I | congruence |].
      destruct (resp_winner s t G) as (w & Hw & Er & _); [unfold qb; rewrite Hq; auto|].
      destruct (Z _ _ Hq Cl) as (NPc & _); auto. left. rewrite <- Er. apply in_map. auto. }
    destruct E; subst qt'; split; simpl; auto; discriminate.
Qed.

Lemma reach_ZInv : forall c s, reach c s -> ZInv s.
Proof.
  intros c. apply reach_inv; [|apply ZInv_step]. intros t qt Hq. destruct t; discriminate.
Qed.

Lemma count_zero : forall A (k : A -> nat) l r,
  length (filter (fun e => k e =? r) l) = 0 <-> ~ In r (map k l).
Proof.
  intros. split.
  - intros H Hi. apply in_map_iff in Hi. destruct Hi as (e & E & Hi).
    pose proof (filter_len_zero _ _ _ H e Hi) as X. simpl in X. rewrite E, Nat.eqb_refl in X.
    discriminate.
  - intros H. apply filter_none. intros e Hi. destruct (k e =? r) eqn:E; auto.
    apply Nat.eqb_eq in E. exfalso. apply H. apply in_map_iff. exists e. auto.
Qed.

Lemma on_wire_zero : forall s r, on_wire s r = 0 <-> ~ In r (map fst3 (wire s)).
Proof. intros. apply (count_zero _ (fun e => fst (fst e))). Qed.

Lemma in_outq_zero : forall s r, in_outq s r = 0 <-> ~ In r (outq s).
Proof.
  intros. unfold in_outq. rewrite <- (map_id (outq s)) at 2. apply (count_zero _ (fun x => x)).
Qed.

(* the flushed request can never be enqueued any more *)
Definition gone (s : st) (t : nat) : Prop := won_past s t 3 /\ ~ In t (SQ s).

Lemma gone_step : forall c s l s' t, reach c s -> gone s t -> Step c s l s' -> gone s' t.
Proof.
  intros c s l s' t Rc (A & B) H. split.
  - eapply won_past_step; eauto; lia.
  - destruct (SQ_step _ _ _ _ H) as [E | (h & Hh & Hpc & Hsf & E)]; rewrite E; auto.
    intro Hi. apply in_app_or in Hi. destruct Hi as [Hi | [Hi | []]]; auto. subst t.
    apply (not_past s h 3 (reach_GInv c s Rc) Hh); auto; rewrite Hpc; simpl; auto.
Qed.
