(* One step of the life-cycle LTS seen from a single request, from a single Respond
   invocation, and from the connection (table of tags, reply queue, wire, flags). *)
From Coq Require Import List Bool PeanoNat Lia.
From V9 Require Import Lib.GoSem Lib.ListFacts Gen.Consts Srv.Conc Srv.ConcInv.
Import ListNotations.

Lemma getq_setq_inv : forall s i q j q', getq (setq s i q) j = Some q' ->
  (i = j /\ q' = q) \/ (i <> j /\ getq s j = Some q').
Proof.
  intros. rewrite getq_setq in H. destruct (Nat.eqb_spec i j) as [<- | Ne]; auto.
  destruct (getq s i); inversion H. auto.
Qed.

Lemma getq_modq_inv : forall s i g j q', getq (modq s i g) j = Some q' ->
  exists q0, getq s j = Some q0 /\ ((i <> j /\ q' = q0) \/ (i = j /\ q' = g q0)).
Proof.
  intros. rewrite getq_modq in H. destruct (getq s j) as [q0|]; inversion H. exists q0. split; auto.
  destruct (Nat.eqb_spec i j); auto.
Qed.

Lemma getq_vmark_inv : forall s r j q', getq (vmark s r) j = Some q' ->
  exists q0, getq s j = Some q0 /\ (q' = q0 \/ (r <> j /\ q' = with_flush q0 true)).
Proof.
  intros s r j q' H. destruct (Nat.eq_dec r j) as [<- | Ne].
  - rewrite getq_vmark_self in H. eauto.
  - rewrite getq_vmark in H. destruct (getq s j) as [q0|]; inversion H.
    exists q0. split; auto. destruct (existsb _ _); auto.
Qed.

(* two hypotheses getq s a = Some x and getq s a = Some y: y becomes x *)
Ltac dedupe :=
  repeat match goal with H1 : getq ?s ?a = Some ?x, H2 : getq ?s ?a = Some ?y |- _ =>
     assert (x = y) by congruence; subst y; clear H2 end.

(* H : getq s' j = Some q' for a state s' built from s: one goal for each way to q' *)
Ltac gq H :=
  rewrite ?getq_addf, ?getq_setf in H;
  lazymatch type of H with
  | getq (setq _ _ _) _ = Some _ =>
      let E := fresh "E" in apply getq_setq_inv in H; destruct H as [(E & ->) | (E & H)]; [subst | gq H]
  | getq (modq _ _ _) _ = Some _ =>
      let E := fresh "E" in let q0 := fresh "q0" in
      apply getq_modq_inv in H; destruct H as (q0 & H & [(E & ->) | (E & ->)]); [|subst]; gq H
  | getq (vmark _ _) _ = Some _ =>
      let E := fresh "E" in let q0 := fresh "q0" in
      apply getq_vmark_inv in H; destruct H as (q0 & H & [-> | (E & ->)])
  | getq (spawn_next _ ?o) _ = Some _ => unfold spawn_next in H; destruct o eqn:?; gq H
  | getq (if ?b then _ else _) _ = Some _ => destruct b eqn:?; gq H
  | getq (mkSt _ (upd (R ?s) ?i ?q) _ _ _ _ _ _) ?j = ?x => change (getq (setq s i q) j = x) in H; gq H
  | getq (mkSt _ (R ?s) _ _ _ _ _ _) ?j = ?x => change (getq s j = x) in H
  | _ => idtac
  end.

(* [qstep c s l r q q']: label l may turn request r from q into q'.  The label names the
   request or the Respond invocation that acts; a flush (F1, F2, F3) also writes to its
   target, a Tversion (V1) to every outstanding request, Respond (R1, R2, R5) to its own
   request and to the neighbours in the tag group. *)
Inductive qstep (c : cfg) (s : st) : label -> nat -> rq -> rq -> Prop :=
| Q_newer tag k r q (Hlk : alookup (reqs s) tag = Some r) :
    qstep c s (LArrive tag k) r q (with_links q (q_flushreq q) (Some (length (R s))) (q_next q))
| Q_startF r q (Hpc : q_pc q = WSpawned) (Hfl : q_flush q = true) :
    qstep c s (LWStart r) r q (with_pc q WDone)
| Q_start r q (Hpc : q_pc q = WSpawned) (Hfl : q_flush q = false) :
    qstep c s (LWStart r) r q (with_pc (with_status q false true (q_resp q) (q_saved q)) WProc)
| Q_reject r v q (Hpc : q_pc q = WProc) (Hk : q_kind q = KOp) :
    qstep c s (LReject r v) r q (with_pc (with_buf q v) WTail)
| Q_opcall r q (Hpc : q_pc q = WProc) (Hk : q_kind q = KOp) :
    qstep c s (LOpCall r) r q (with_pc (with_called q) WInOp)
| Q_opreturn r q (Hpc : q_pc q = WInOp) : qstep c s (LOpReturn r) r q (with_pc q WTail)
| Q_answer r v q (Hcl : q_called q = true) : qstep c s (LAnswer r v) r q (with_buf q v)
| Q_f1 r q old t qt (Hpc : q_pc q = WProc) (Hk : q_kind q = KFlush old) (Hlk : alookup (reqs s) old = Some t)
    (Hqt : getq s t = Some qt) (Hne : r <> t) :
    qstep c s (LF1 r) r q (f1_q q qt t)
| Q_f1_target r q old t qt (Ha : getq s r = Some q) (Hpc : q_pc q = WProc) (Hk : q_kind q = KFlush old)
    (Hlk : alookup (reqs s) old = Some t) (Hne : r <> t) :
    qstep c s (LF1 r) t qt (with_flushreq qt (Some r))
| Q_f1_self r q old (Hpc : q_pc q = WProc) (Hk : q_kind q = KFlush old) (Hlk : alookup (reqs s) old = Some r) :
    qstep c s (LF1 r) r q (with_flushreq (f1_q q q r) (Some r))
| Q_f1_none r q old (Hpc : q_pc q = WProc) (Hk : q_kind q = KFlush old) (Hlk : alookup (reqs s) old = None) :
    qstep c s (LF1 r) r q (with_pc (with_buf q v_rflush) WTail)
| Q_f2 r q t qt w (Hpc : q_pc q = WF2 t) (Hqt : getq s t = Some qt) (Hw : q_work qt || q_saved qt = w) :
    qstep c s (LF2 r) r q (with_pc q (WF3 t w))
| Q_f2_target r q t qt (Ha : getq s r = Some q) (Hpc : q_pc q = WF2 t)
    (Hw : q_work qt || q_saved qt = false) (Hne : r <> t) :
    qstep c s (LF2 r) t qt (with_flush qt true)
| Q_f2_self r q (Hpc : q_pc q = WF2 r) (Hw : q_work q || q_saved q = false) :
    qstep c s (LF2 r) r q (with_pc (with_flush q true) (WF3 r false))
| Q_f3resp r q t (Hpc : q_pc q = WF3 t false) : qstep c s (LF3 r) r q (with_pc q WTail)
| Q_f3op r q t (Hpc : q_pc q = WF3 t true) (Hop : has_flushop c = true) :
    qstep c s (LF3 r) r q (with_pc q (WInFlushOp t))
| Q_f3op_target r q t qt (Ha : getq s r = Some q) (Hpc : q_pc q = WF3 t true) (Hop : has_flushop c = true)
    (Hne : r <> t) :
    qstep c s (LF3 r) t qt (with_flushop qt)
| Q_f3op_self r q (Hpc : q_pc q = WF3 r true) (Hop : has_flushop c = true) :
    qstep c s (LF3 r) r q (with_pc (with_flushop q) (WInFlushOp r))
| Q_f3none r q t (Hpc : q_pc q = WF3 t true) (Hop : has_flushop c = false) :
    qstep c s (LF3 r) r q (with_pc q WTail)
| Q_flushopreturn r q t (Hpc : q_pc q = WInFlushOp t) : qstep c s (LFlushOpReturn r) r q (with_pc q WTail)
| Q_reqflush r q (Hfo : q_flushop q = true) (Hcl : q_called q = true) :
    qstep c s (LReqFlush r) r q (with_flush q true)
| Q_v1 r q (Hpc : q_pc q = WProc) (Hk : q_kind q = KVersion) :
    qstep c s (LV1 r) r q (with_pc (with_buf q v_rversion) WTail)
| Q_vmark r t qt (Hne : r <> t) : qstep c s (LV1 r) t qt (with_flush qt true)
| Q_tail r q (Hpc : q_pc q = WTail) : qstep c s (LWTail r) r q (tail_q q)
| Q_r1 fi f q (Hn : nth_error (F s) fi = Some f) (Hfp : f_pc f = R1) :
    qstep c s (LR fi) (f_req f) q (with_status q (q_flush q) false true (q_saved q))
| Q_relink fi f q nx qn r q0 (Hn : nth_error (F s) fi = Some f) (Hfp : f_pc f = R2)
    (Ha : getq s (f_req f) = Some q) (Hp : q_prev q = Some nx) (Hqn : getq s nx = Some qn) :
    qstep c s (LR fi) r q0 (relink s q qn nx r q0)
| Q_spawn fi f r q (Hn : nth_error (F s) fi = Some f) (Hfp : f_pc f = R5) (Hnx : f_next f = Some r) :
    qstep c s (LR fi) r q (with_pc q WSpawned).

Lemma step_getq : forall c s l s', WF s -> Step c s l s' -> forall j q', getq s' j = Some q' ->
  (exists q, getq s j = Some q /\ (q' = q \/ qstep c s l j q q')) \/
  (getq s j = None /\ exists tag k, l = LArrive tag k /\ j = length (R s) /\
                                    q' = fresh_rq tag k (alookup (reqs s) tag)).
Proof.
  intros c s l s' W H j q' Hg. destruct H.
  1: { (* S_Arrive *)
       unfold getq in Hg; simpl in Hg. rewrite arrive_R_nth in Hg by (intros o Ho; eapply (wf_reqs _ W), alookup_In; eauto).
       destruct (Nat.eqb_spec j (length (R s))) as [-> | Ne].
       - right. split; [apply nth_error_None; lia | inversion Hg; eauto 7].
       - left. unfold getq. destruct (nth_error (R s) j) as [q|]; inversion Hg. exists q. split; auto.
         destruct (opt_is _ j) eqn:E; auto. apply opt_is_true in E. right. constructor. auto. }
  18: { (* S_R2link *)
        rewrite getq_setf, (getq_r2_link _ _ _ _ _ H3) in Hg. destruct (getq s j) as [q0|]; inversion Hg.
        left. exists q0. split; auto. right. econstructor; eauto. }
  all: gq Hg; dedupe; left; eexists; (split; [eassumption|]).
  all: try (left; reflexivity).
  all: try solve [right; econstructor; eauto].
Qed.

(* the request a worker or environment label names: that request moves by a [qstep] (step_actor) *)
Definition actor (l : label) : option nat :=
  match l with
  | LWStart r | LReject r _ | LOpCall r | LOpReturn r | LAnswer r _ | LF1 r | LF2 r | LF3 r
  | LFlushOpReturn r | LReqFlush r | LV1 r | LWTail r => Some r
  | _ => None
  end.

Lemma step_actor : forall c s l s' r q, Step c s l s' -> actor l = Some r -> getq s r = Some q ->
  exists q', getq s' r = Some q' /\ qstep c s l r q q'.
Proof.
  intros c s l s' a qa H A Hq. destruct H; simpl in A; try discriminate A; inversion A; subst; clear A; dedupe.
  all: try solve [eexists; split; [rewrite ?getq_addf; eapply getq_setq_same; eassumption | econstructor; eauto]].
  - (* S_F1 *) rewrite getq_modq, (getq_setq_same _ _ _ _ H). destruct (Nat.eqb_spec t a) as [-> | Ne]; dedupe;
      eexists; (split; [reflexivity | econstructor; eauto]).
  - (* S_F2 *) rewrite getq_modq, Nat.eqb_refl. destruct (q_work qt || q_saved qt) eqn:Wk.
    + rewrite H. eexists. split; [reflexivity | econstructor; eauto].
    + rewrite getq_setq, H1. destruct (Nat.eqb_spec t a) as [-> | Ne]; dedupe;
        [|rewrite H]; eexists; (split; [reflexivity | econstructor; eauto]).
  - (* S_F3op *) rewrite getq_modq, Nat.eqb_refl, getq_setq, H2. destruct (Nat.eqb_spec t a) as [-> | Ne]; dedupe;
      [|rewrite H]; eexists; (split; [reflexivity | econstructor; eauto]).
  - (* S_V1 *) eexists. split; [rewrite getq_addf; eapply getq_setq_same; rewrite getq_vmark_self; eassumption|].
    econstructor; eauto.
Qed.

Lemma F1_actor_pc : forall c s r s' q, Step c s (LF1 r) s' -> getq s r = Some q -> q_pc q = WProc.
Proof.
  intros c s r s' q H Hq. destruct (step_actor _ _ _ _ _ _ H eq_refl Hq) as (q' & _ & Q).
  inversion Q; subst; auto; congruence.
Qed.

Lemma step_F1_target : forall c s r s' q old t, Step c s (LF1 r) s' ->
  getq s r = Some q -> q_kind q = KFlush old -> alookup (reqs s) old = Some t ->
  exists qt', getq s' t = Some qt' /\ q_flushreq qt' = Some r.
Proof.
  intros c s r s' q old t H Hq Hk Hl. inversion H; subst; dedupe; try congruence.
  assert (old0 = old) by congruence. subst old0. assert (t0 = t) by congruence. subst t0.
  rewrite getq_modq, getq_setq, Hq. destruct (r =? t); [|rewrite H5]; rewrite Nat.eqb_refl; eauto.
Qed.

Lemma step_arrive : forall c s tag k s', WF s -> Step c s (LArrive tag k) s' ->
  getq s' (length (R s)) = Some (fresh_rq tag k (alookup (reqs s) tag)).
Proof.
  intros c s tag k s' W H. inversion H; subst. unfold getq. simpl. rewrite arrive_R_nth, Nat.eqb_refl; auto.
  intros o Ho. eapply (wf_reqs s W), alookup_In; eauto.
Qed.

Lemma step_F2_flags : forall c s r s' q t qt, Step c s (LF2 r) s' ->
  getq s r = Some q -> q_pc q = WF2 t -> getq s t = Some qt -> q_work qt || q_saved qt = false ->
  exists qt', getq s' t = Some qt' /\ (qt' = with_flush qt true \/ qt' = with_pc (with_flush qt true) (WF3 t false)).
Proof.
  intros c s r s' q t qt H Hq Hpc Ht Hw. inversion H; subst; dedupe.
  assert (t0 = t) by congruence. subst t0. dedupe.
  rewrite Hw, getq_modq, (getq_setq_same _ _ _ _ Ht). destruct (r =? t); eauto.
Qed.

Lemma F_modq : forall s i g, F (modq s i g) = F s.
Proof. intros. unfold modq. destruct (getq s i); reflexivity. Qed.

Lemma F_r2_link : forall s q qn nx, F (r2_link s q qn nx) = F s.
Proof.
  intros. unfold r2_link. destruct (q_flushreq q); [destruct (q_flushreq qn)|]; rewrite ?F_modq; reflexivity.
Qed.

Lemma F_spawn_next : forall s o, F (spawn_next s o) = F s.
Proof. intros. destruct o; [apply F_modq | reflexivity]. Qed.

Inductive fstep (c : cfg) (s : st) (f : frame) : frame -> Prop :=
| F_r1 q (Hfp : f_pc f = R1) (Hfq : getq s (f_req f) = Some q) :
    fstep c s f (mkFrame (f_req f) (if q_resp q then RDone else R3) (q_flush q) None None (negb (q_resp q)))
| F_r2link q nx (Hfp : f_pc f = R2) (Hfq : getq s (f_req f) = Some q) (Hp : q_prev q = Some nx) :
    fstep c s f (mkFrame (f_req f) R5 (f_sflush f) (Some nx) None (f_won f))
| F_r2last q (Hfp : f_pc f = R2) (Hfq : getq s (f_req f) = Some q) (Hp : q_prev q = None) :
    fstep c s f (mkFrame (f_req f) R5 (f_sflush f) None (q_flushreq q) (f_won f))
| F_r3 (Hfp : f_pc f = R3) : fstep c s f (fr_set f R4)
| F_r4 (Hfp : f_pc f = R4) (Hgo : f_sflush f = true \/ closed s = true \/ room c s = true) :
    fstep c s f (fr_set f R2)
| F_r5 (Hfp : f_pc f = R5) : fstep c s f (fr_set f R6)
| F_r6done (Hfp : f_pc f = R6) (Hcur : f_cur f = None) :
    fstep c s f (mkFrame (f_req f) RDone (f_sflush f) (f_next f) None (f_won f))
| F_r6next x (Hfp : f_pc f = R6) (Hcur : f_cur f = Some x) :
    fstep c s f (mkFrame (f_req f) R7 (f_sflush f) (f_next f) (Some x) (f_won f))
| F_r7 x qx (Hfp : f_pc f = R7) (Hcur : f_cur f = Some x) (Hqx : getq s x = Some qx) :
    fstep c s f (mkFrame (f_req f) R6 (f_sflush f) (f_next f) (q_flushnext qx) (f_won f)).

(* [starts c s l x]: label l calls Respond on request x *)
Inductive starts (c : cfg) (s : st) : label -> nat -> Prop :=
| St_cancelled r q (Ha : getq s r = Some q) (Hpc : q_pc q = WSpawned) (Hfl : q_flush q = true) :
    starts c s (LWStart r) r
| St_reject r v q (Ha : getq s r = Some q) (Hpc : q_pc q = WProc) (Hk : q_kind q = KOp) :
    starts c s (LReject r v) r
| St_answer r v q (Ha : getq s r = Some q) (Hcl : q_called q = true) : starts c s (LAnswer r v) r
| St_f1none r q old (Ha : getq s r = Some q) (Hpc : q_pc q = WProc) (Hk : q_kind q = KFlush old)
    (Hlk : alookup (reqs s) old = None) :
    starts c s (LF1 r) r
| St_f3 r q t (Ha : getq s r = Some q) (Hpc : q_pc q = WF3 t false) : starts c s (LF3 r) t
| St_reqflush t qt (Ha : getq s t = Some qt) (Hfo : q_flushop qt = true) (Hcl : q_called qt = true) :
    starts c s (LReqFlush t) t
| St_v1 r q (Ha : getq s r = Some q) (Hpc : q_pc q = WProc) (Hk : q_kind q = KVersion) : starts c s (LV1 r) r
| St_r6 fi f x (Hn : nth_error (F s) fi = Some f) (Hfp : f_pc f = R6) (Hcur : f_cur f = Some x) :
    starts c s (LR fi) x.

Inductive new_frames (c : cfg) (s : st) (l : label) : list frame -> Prop :=
| NF_none : new_frames c s l []
| NF_one x (Hst : starts c s l x) : new_frames c s l [new_frame x].

Lemma step_frames : forall c s l s', Step c s l s' ->
  exists tl, new_frames c s l tl /\
    (((forall i, l <> LR i) /\ F s' = F s ++ tl) \/
     (exists fi f f', l = LR fi /\ nth_error (F s) fi = Some f /\ fstep c s f f' /\ F s' = upd (F s) fi f' ++ tl)).
Proof.
  intros c s l s' H. destruct H; simpl; rewrite ?F_modq, ?F_r2_link, ?F_spawn_next;
    try match goal with |- context [F (if ?b then _ else _)] => destruct b end.
  all: try solve [eexists; split; [eapply NF_one; econstructor; eauto|]; left; split; [discriminate | reflexivity]].
  all: try solve [exists []; split; [constructor|]; left; split; [discriminate | symmetry; apply app_nil_r]].
  all: try solve [eexists; split; [eapply NF_one; econstructor; eauto|]; right; exists fi, f; eexists;
                  split; [reflexivity | split; [eassumption | split; [econstructor; eauto | reflexivity]]]].
  all: exists []; split; [constructor|]; right; exists fi, f; eexists;
    (split; [reflexivity | split; [eassumption | split; [econstructor; eauto; tauto |symmetry; apply app_nil_r]]]).
Qed.

Lemma step_frame : forall c s l s' f', Step c s l s' -> In f' (F s') ->
  In f' (F s) \/
  (exists fi f, l = LR fi /\ nth_error (F s) fi = Some f /\ fstep c s f f') \/
  (exists x, f' = new_frame x /\ starts c s l x).
Proof.
  intros c s l s' f' H Hi.
  destruct (step_frames _ _ _ _ H) as (tl & N & [(_ & E) | (fi & f & f1 & -> & Hn & St & E)]);
    rewrite E in Hi; apply in_app_or in Hi; destruct Hi as [Hi | Hi]; auto.
  - destruct N as [|x St]; [contradiction | destruct Hi as [<- | []]; eauto].
  - apply In_upd_nth in Hi. destruct Hi as [(-> & _) | (j & _ & Hi)]; [|eauto using nth_error_In].
    right. left. exists fi, f. auto.
  - destruct N as [|x St']; [contradiction | destruct Hi as [<- | []]; eauto].
Qed.

Lemma step_frame_at : forall c s l s' i f, Step c s l s' -> nth_error (F s) i = Some f ->
  exists f', nth_error (F s') i = Some f' /\ ((l = LR i /\ fstep c s f f') \/ (l <> LR i /\ f' = f)).
Proof.
  intros c s l s' i f H Hi.
  destruct (step_frames _ _ _ _ H) as (tl & _ & [(Nl & E) | (fi & f0 & f1 & -> & Hn & St & E)]); rewrite E.
  - exists f. split; [apply nth_error_app_l; auto | auto].
  - destruct (Nat.eq_dec fi i) as [-> | Ne].
    + exists f1. split; [apply nth_error_app_l; eapply nth_error_upd_same; eauto|].
      left. split; auto. congruence.
    + exists f. split; [apply nth_error_app_l; rewrite nth_error_upd_other; auto|].
      right. split; congruence.
Qed.

(* how far an invocation has come: Respond queues the reply (R4) before it unlinks the request (R2);
   R6/R7 form the final loop *)
Definition ord (p : fpc) : nat :=
  match p with R1 => 0 | R3 => 1 | R4 => 2 | R2 => 3 | R5 => 4 | R6 => 5 | R7 => 5 | RDone => 6 end.

Definition fr_adv (f f' : frame) : Prop :=
  f_req f' = f_req f /\ ord (f_pc f) <= ord (f_pc f') /\
  (f_pc f <> R1 -> f_won f' = f_won f /\ f_sflush f' = f_sflush f).

Lemma fstep_adv : forall c s f f', fstep c s f f' -> fr_adv f f'.
Proof.
  intros c s f f' St. destruct St; unfold fr_adv, fr_set; simpl; rewrite Hfp; simpl;
    repeat split; auto; try congruence; try lia; destruct (q_resp q); simpl; lia.
Qed.

Lemma frame_persist_in : forall c s l s', Step c s l s' ->
  forall f, In f (F s) -> exists f', In f' (F s') /\ fr_adv f f'.
Proof.
  intros c s l s' H f Hi. apply In_nth_error in Hi. destruct Hi as (i & Hn).
  destruct (step_frame_at _ _ _ _ _ _ H Hn) as (f' & Hn' & X). exists f'. split; [eapply nth_error_In; eauto|].
  destruct X as [(_ & St) | (_ & ->)]; [eapply fstep_adv; eauto | unfold fr_adv; intuition].
Qed.

Lemma step_R1 : forall c s fi s' f q, Step c s (LR fi) s' ->
  nth_error (F s) fi = Some f -> f_pc f = R1 -> getq s (f_req f) = Some q ->
  getq s' (f_req f) = Some (with_status q (q_flush q) false true (q_saved q)).
Proof.
  intros c s fi s' f q H Hn Hpc Hq. inversion H; subst;
    match goal with X : nth_error (F s) fi = Some ?f0 |- _ => assert (f0 = f) by congruence; subst f0 end;
    try congruence; dedupe; rewrite getq_setf; eapply getq_setq_same; eauto.
Qed.

Lemma step_R2link : forall c s fi s' f q nx qn, Step c s (LR fi) s' ->
  nth_error (F s) fi = Some f -> f_pc f = R2 -> getq s (f_req f) = Some q -> q_prev q = Some nx ->
  getq s nx = Some qn ->
  forall j, getq s' j = match getq s j with Some q0 => Some (relink s q qn nx j q0) | None => None end.
Proof.
  intros c s fi s' f q nx qn H Hn Hpc Hq Hp Hqn j. inversion H; subst;
    assert (f0 = f) by congruence; subst f0; try congruence; dedupe.
  assert (nx0 = nx) by congruence. subst nx0. dedupe. rewrite getq_setf. apply getq_r2_link. auto.
Qed.

Lemma starts_frame : forall c s l s' x, Step c s l s' -> starts c s l x -> In (new_frame x) (F s').
Proof.
  intros c s l s' x H St. destruct H; inversion St; subst; simpl; auto with datatypes; try congruence.
  all: apply in_or_app; right; left; f_equal; congruence.
Qed.

Definition globals (s : st) := (reqs s, length (R s), outq s, wire s, closed s, recvr s).

Lemma globals_eq : forall s a n o w cl rv, globals s = (a, n, o, w, cl, rv) ->
  reqs s = a /\ length (R s) = n /\ outq s = o /\ wire s = w /\ closed s = cl /\ recvr s = rv.
Proof. unfold globals. intros. inversion H. repeat split; reflexivity. Qed.

Lemma globals_setq : forall s i q, globals (setq s i q) = globals s.
Proof. intros. unfold globals. simpl. rewrite upd_length. reflexivity. Qed.

Lemma globals_setf : forall s i f, globals (setf s i f) = globals s.
Proof. reflexivity. Qed.

Lemma globals_addf : forall s f, globals (addf s f) = globals s.
Proof. reflexivity. Qed.

Lemma globals_modq : forall s i g, globals (modq s i g) = globals s.
Proof. intros. unfold modq. destruct (getq s i); [apply globals_setq | reflexivity]. Qed.

Lemma globals_r2_link : forall s q qn nx, globals (r2_link s q qn nx) = globals s.
Proof.
  intros. unfold r2_link. destruct (q_flushreq q); [destruct (q_flushreq qn)|];
    rewrite ?globals_modq, ?globals_setq; reflexivity.
Qed.

Lemma globals_spawn_next : forall s o, globals (spawn_next s o) = globals s.
Proof. intros. destruct o; [apply globals_modq | reflexivity]. Qed.

Lemma globals_vmark : forall s r, globals (vmark s r) = globals s.
Proof. intros. unfold globals. simpl. rewrite mark_flushed_length. reflexivity. Qed.

(* [gstep]: what a step does to the table of tags, the number of requests, the reply queue, the wire
   and the two flags: nothing ([inert] says when), except in the six cases listed *)
Definition inert (c : cfg) (s : st) (l : label) : Prop :=
  match l with
  | LArrive _ _ | LWTail _ | LSend | LDisconnect => False
  | LR fi => forall f, nth_error (F s) fi = Some f ->
      (f_pc f = R2 -> exists q nx, getq s (f_req f) = Some q /\ q_prev q = Some nx) /\
      (f_pc f = R4 -> f_sflush f = true \/ closed s = true)
  | _ => True
  end.

Inductive gstep (c : cfg) (s s' : st) : label -> Prop :=
| G_same l (Hl : inert c s l) (E : globals s' = globals s) : gstep c s s' l
| G_arrive tag k (Hrv : recvr s = RvOpen)
    (E : globals s' = (aset (reqs s) tag (length (R s)), S (length (R s)), outq s, wire s, closed s,
                       arrive_rv s tag k)) :
    gstep c s s' (LArrive tag k)
| G_tail r (E : globals s' = (reqs s, length (R s), outq s, wire s, closed s, tail_rv (recvr s) r)) :
    gstep c s s' (LWTail r)
| G_unlink fi f q (Hn : nth_error (F s) fi = Some f) (Hfp : f_pc f = R2) (Hfq : getq s (f_req f) = Some q)
    (Hp : q_prev q = None)
    (E : globals s' = (aremove (reqs s) (q_tag q), length (R s), outq s, wire s, closed s, recvr s)) :
    gstep c s s' (LR fi)
| G_queue fi f (Hn : nth_error (F s) fi = Some f) (Hfp : f_pc f = R4) (Hsf : f_sflush f = false)
    (Hcl : closed s = false)
    (E : globals s' = (reqs s, length (R s), outq s ++ [f_req f], wire s, closed s, recvr s)) :
    gstep c s s' (LR fi)
| G_send r rest q (Hcl : closed s = false) (Ho : outq s = r :: rest) (Hq : getq s r = Some q)
    (E : globals s' = (reqs s, length (R s), rest, wire s ++ [(r, q_tag q, q_buf q)], closed s, recvr s)) :
    gstep c s s' LSend
| G_disconnect (Hrv : recvr s <> RvClosed)
    (E : globals s' = (reqs s, length (R s), outq s, wire s, true, RvClosed)) :
    gstep c s s' LDisconnect.

Lemma step_globals : forall c s l s', Step c s l s' -> gstep c s s' l.
Proof.
  intros c s l s' H. destruct H.
  all: try solve [apply G_same;
                  [first [exact I | intros f0 X; assert (f0 = f) by congruence; subst f0;
                                    split; intro Y; try congruence; eauto] |];
                  rewrite ?globals_addf, ?globals_setf, ?globals_modq, ?globals_setq, ?globals_r2_link,
                    ?globals_spawn_next, ?globals_vmark;
                  try match goal with |- context [if ?b then _ else _] => destruct b end;
                  rewrite ?globals_setq; reflexivity].
  - apply G_arrive; auto. unfold globals. simpl. rewrite arrive_R_length. reflexivity.
  - apply G_tail. unfold globals. simpl. rewrite upd_length. reflexivity.
  - eapply G_unlink; eauto.
  - eapply G_queue; eauto.
  - eapply G_send; eauto.
  - apply G_disconnect; auto.
Qed.

(* H : Step c s l s'.  One goal for each case of [gstep], with the six components of the
   successor state as equations Erq, Elen, Eoq, Ewi, Ecl, Erv. *)
Ltac globals_cases H :=
  let G := fresh "G" in
  pose proof (step_globals _ _ _ _ H) as G; destruct G;
  match goal with E : globals _ = _ |- _ =>
    apply globals_eq in E; destruct E as (Erq & Elen & Eoq & Ewi & Ecl & Erv) end.

Lemma step_length : forall c s l s', Step c s l s' -> length (R s) <= length (R s').
Proof. intros c s l s' H. globals_cases H; lia. Qed.

Lemma arrive_length : forall c s tag k s', Step c s (LArrive tag k) s' -> length (R s') = S (length (R s)).
Proof.
  intros c s tag k s' H. remember (LArrive tag k) as l eqn:El.
  globals_cases H; try discriminate El; [subst; contradiction | assumption].
Qed.

Lemma closed_mono : forall c s l s', Step c s l s' -> closed s = true -> closed s' = true.
Proof. intros c s l s' H. globals_cases H; congruence. Qed.

Lemma outq_step : forall c s l s' r, Step c s l s' -> In r (outq s') ->
  In r (outq s) \/ exists fi f, nth_error (F s) fi = Some f /\ f_req f = r /\ f_pc f = R4 /\ f_sflush f = false.
Proof.
  intros c s l s' r H Hi. globals_cases H; rewrite Eoq in Hi; auto.
  - apply in_app_or in Hi. destruct Hi as [Hi | [Hi | []]]; eauto 8.
  - left. rewrite Ho. right. auto.
Qed.

Lemma wire_step : forall c s l s' e, Step c s l s' -> In e (wire s') ->
  In e (wire s) \/ exists r q, In r (outq s) /\ getq s r = Some q /\ e = (r, q_tag q, q_buf q).
Proof.
  intros c s l s' e H Hi. globals_cases H; rewrite Ewi in Hi; auto.
  apply in_app_or in Hi. destruct Hi as [Hi | [Hi | []]]; auto. right.
  exists r, q. rewrite Ho. simpl. auto.
Qed.

Lemma step_R67 : forall c s fi s' f, WF s -> Step c s (LR fi) s' ->
  nth_error (F s) fi = Some f -> f_pc f = R6 \/ f_pc f = R7 -> forall j, getq s' j = getq s j.
Proof.
  intros c s fi s' f W H Hn Hpc j. destruct (getq s' j) as [q'|] eqn:Hq'.
  - destruct (step_getq _ _ _ _ W H _ _ Hq') as [(q & Hq & [-> | Q]) | (_ & tag & k & X & _)];
      [auto | | discriminate].
    exfalso. inversion Q; subst; assert (f0 = f) by congruence; subst; destruct Hpc; congruence.
  - symmetry. apply nth_error_None. apply nth_error_None in Hq'. pose proof (step_length _ _ _ _ H). lia.
Qed.
