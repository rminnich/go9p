(* Every Tflush is answered, also when the request it names is itself a Tflush:
   generalisation of [flush_answered_once_corrected] (Srv/ConcProofs.v) to chains of
   flush requests naming flush requests.  Only the cyclic chains (a Tflush naming
   itself, two naming each other, ...: [flush_answered_once_counterexample]) are excluded.

   A Tflush f whose target t is a Tflush does not cancel t: at F1 it is chained on t's
   list of waiting flushes and goes to its tail.  Its Respond is called by the loop at
   the end of t's Respond (R6/R7).  So f is answered as soon as t is, t as soon as its
   own target is, and so on down the chain of targets; the chain ends in a request that
   is not a Tflush (answered by the implementation / the framework, or cancelled by f's
   predecessor in the chain) or in a flush request that found nothing under oldtag
   (answered at its own F1) or was cancelled before it started. *)
From Coq Require Import NArith List Relations Wellfounded.
From V9 Require Import Lib.GoSem Gen.Consts Srv.Conc.
From V9 Require Import Srv.ConcInv Srv.ConcStep Srv.ConcWF Srv.ConcMono Srv.ConcCount Srv.ConcContent Srv.ConcWin
  Srv.ConcLocal Srv.ConcOrder Srv.ConcFlush Srv.ConcCancel Srv.ConcFinish Srv.ConcAnswered Srv.ConcProofs.
Import ListNotations.

(* the chain of targets starting at f is finite; nothing is asked of the flush requests on the
   way: they may be cancelled or not, and [t <> f] is implied by well-foundedness *)
Inductive wf_target (s : st) : nat -> Prop :=
| wt_none f qf : getq s f = Some qf -> q_target qf = None -> wf_target s f
| wt_op f qf t qt : getq s f = Some qf -> q_target qf = Some t -> getq s t = Some qt ->
    (q_kind qt = KOp \/ q_kind qt = KVersion) -> wf_target s f
| wt_flush f qf t qt old : getq s f = Some qf -> q_target qf = Some t -> getq s t = Some qt ->
    q_kind qt = KFlush old -> wf_target s t -> wf_target s f.

(* the same with the side conditions that [wf_target] does without *)
Inductive well_founded_target (s : st) : nat -> Prop :=
| wft_none f qf : getq s f = Some qf -> q_target qf = None -> well_founded_target s f
| wft_op f qf t qt : getq s f = Some qf -> q_target qf = Some t -> getq s t = Some qt ->
    (q_kind qt = KOp \/ q_kind qt = KVersion) -> well_founded_target s f
| wft_flush f qf t qt old : getq s f = Some qf -> q_target qf = Some t -> getq s t = Some qt ->
    q_kind qt = KFlush old -> t <> f -> q_flush qt = false -> well_founded_target s t ->
    well_founded_target s f.

Lemma well_founded_target_wf : forall s f, well_founded_target s f -> wf_target s f.
Proof.
  induction 1; [eapply wt_none | eapply wt_op | eapply wt_flush]; eauto.
Qed.

Lemma flush_chain_has_frame : forall c s,
  reach c s -> quiescent c s -> closed s = false -> NoGroups s -> all_answered s ->
  forall f, wf_target s f -> forall qf, getq s f = Some qf -> kflush qf -> has_frame s f.
Proof.
  intros c s H Q Hc N AA f Wt.
  assert (St := flush_responded_on c s H Q Hc (NoGroups_NG s N) AA).
  induction Wt as [f qf0 Hf0 Tn | f qf0 t qt Hf0 Ht Hqt Kt | f qf0 t qt old Hf0 Ht Hqt Kt Wt IH];
    intros qf Hf KF; apply has_frame_iff; apply (St f qf Hf KF); intros t' qt' Ht' Hqt' KF';
    assert (qf0 = qf) by congruence; subst qf0.
  - congruence.
  - assert (t' = t) by congruence. subst t'. assert (qt' = qt) by congruence. subst qt'.
    destruct KF' as (o & K). destruct Kt; congruence.
  - assert (t' = t) by congruence. subst t'. apply has_frame_iff. eapply IH; eauto.
Qed.

(* C07: at quiescence, on an open connection on which no tag was ever shared and the
   implementation has answered everything it was handed, every flush request that was
   not cancelled and whose chain of targets is finite (ends in a request that is not a
   Tflush, or in a flush request without a target) has exactly one Rflush on the wire.

   Compared with [flush_answered_once_corrected]:
   - the target may be a Tflush, whose target may be a Tflush, ... (any finite depth);
   - nothing is asked of the intermediate flush requests (they may even be cancelled);
   - nothing is assumed of the program counter of the flush request: at quiescence
     it is where that theorem asks it to be. *)
Theorem flush_chain_answered_once : forall c s f qf old,
  reach c s -> quiescent c s -> closed s = false -> NoGroups s -> all_answered s ->
  getq s f = Some qf -> q_kind qf = KFlush old -> q_flush qf = false ->
  wf_target s f ->
  on_wire s f = 1.
Proof.
  intros c s f qf old H Q Hc NGr AA Hf Hk Hfl Wt.
  eapply exactly_one_at_quiescence; eauto.
  eapply flush_chain_has_frame; eauto. exists old. exact Hk.
Qed.

(* the hypotheses of [flush_answered_once_corrected], with [well_founded_target] for the one
   about the kind of the target *)
Corollary flush_answered_once_chain : forall c s f qf old,
  reach c s -> quiescent c s -> closed s = false -> NoGroups s -> all_answered s ->
  getq s f = Some qf -> q_kind qf = KFlush old -> q_flush qf = false ->
  (q_pc qf = WDone \/ exists t, q_pc qf = WInFlushOp t) ->
  well_founded_target s f ->
  on_wire s f = 1.
Proof.
  intros. eapply flush_chain_answered_once; eauto using well_founded_target_wf.
Qed.

(* [flush_answered_once_corrected] is the instance "chain of length at most one" *)
Lemma wf_target_of_nonflush : forall c s f qf,
  reach c s -> getq s f = Some qf ->
  (forall t qt, q_target qf = Some t -> getq s t = Some qt -> q_kind qt = KOp \/ q_kind qt = KVersion) ->
  wf_target s f.
Proof.
  intros c s f qf H Hf NF.
  destruct (q_target qf) as [t|] eqn:Ht; [|eapply wt_none; eauto].
  destruct (target_some s f qf t (reach_WF c s H) Hf Ht) as (qt & Hqt). eapply wt_op; eauto.
Qed.

Corollary flush_answered_once_corrected_again : forall c s f qf old,
  reach c s -> quiescent c s -> closed s = false -> NoGroups s -> all_answered s ->
  getq s f = Some qf -> q_kind qf = KFlush old -> q_flush qf = false ->
  (forall t qt, q_target qf = Some t -> getq s t = Some qt -> q_kind qt = KOp \/ q_kind qt = KVersion) ->
  on_wire s f = 1.
Proof.
  intros. eapply flush_chain_answered_once; eauto using wf_target_of_nonflush.
Qed.

(* [tflush s t f]: the flush request t is the target of f *)
Definition tflush (s : st) (t f : nat) : Prop :=
  exists qf qt old, getq s f = Some qf /\ q_target qf = Some t /\ getq s t = Some qt /\ q_kind qt = KFlush old.

(* [wf_target] is accessibility for "is the flush request named by" ... *)
Lemma wf_target_Acc : forall s f, wf_target s f -> Acc (tflush s) f.
Proof.
  intros s f Wt.
  induction Wt as [f qf0 Hf0 Tn | f qf0 t qt Hf0 Ht Hqt Kt | f qf0 t qt old Hf0 Ht Hqt Kt Wt IH];
    constructor; intros y (qf & qy & o & A & B & C & D); assert (qf = qf0) by congruence; subst qf.
  - congruence.
  - assert (y = t) by congruence. subst y. assert (qy = qt) by congruence. subst qy.
    destruct Kt; congruence.
  - assert (y = t) by congruence. subst y. exact IH.
Qed.

Lemma Acc_wf_target : forall s f, WF s -> Acc (tflush s) f -> f < length (R s) -> wf_target s f.
Proof.
  intros s f W A. induction A as [f _ IH]. intros Lt.
  destruct (getq_some s f Lt) as (qf & Hf).
  destruct (q_target qf) as [t|] eqn:Ht; [|eapply wt_none; eauto].
  destruct (target_some s f qf t W Hf Ht) as (qt & Hqt).
  destruct (q_kind qt) as [|o|] eqn:Kt.
  - eapply wt_op; eauto.
  - eapply wt_flush; eauto. apply IH; [exists qf, qt, o; auto | eapply getq_lt; eauto].
  - eapply wt_op; eauto.
Qed.

(* ... so a flush request with a finite chain of targets lies on no cycle of flush
   requests naming each other (of any length; length one: a Tflush naming itself) *)
Theorem wf_target_acyclic : forall s f, wf_target s f -> ~ clos_trans nat (tflush s) f f.
Proof.
  intros s f Wt C.
  pose proof (Acc_clos_trans nat (tflush s) f (wf_target_Acc s f Wt)) as A.
  clear Wt. induction A as [f _ IH]. eapply IH; eauto.
Qed.

(* [flush_answered_once_counterexample] (a Tflush naming itself) is excluded by [wf_target] *)
Lemma counterexample_not_wf_target : ~ wf_target cex_st 0.
Proof.
  intro Wt. apply (wf_target_acyclic _ _ Wt). apply t_step.
  exists cex_rq, cex_rq, 1%N. repeat split; reflexivity.
Qed.

(* non-vacuity on a chain longer than one: the final state of the run of
   [flush_of_flush_both_answered].  Request 2 flushes request 1, a Tflush that flushes request 0;
   all hypotheses of the theorem hold there. *)
Definition ff_st : st :=
  Eval vm_compute in
    match run cex_cfg init (ff_run_pre ++ ff_run_post) with Some s => s | None => init end.
Lemma ff_Rn : run cex_cfg init (ff_run_pre ++ ff_run_post) = Some ff_st.
Proof. vm_compute. reflexivity. Qed.
Lemma ff_Q : quiescent cex_cfg ff_st.
Proof.
  intros l Hl. destruct l; simpl in Hl; try discriminate.
  all: try (destruct r as [|[|[|[|r]]]]; vm_compute; reflexivity).
  all: try (destruct f as [|[|[|[|f]]]]; vm_compute; reflexivity).
  all: vm_compute; reflexivity.
Qed.
Lemma ff_NG : NoGroups ff_st.
Proof.
  intros r q Hq. destruct r as [|[|[|r]]]; [| | |destruct r; discriminate].
  all: (vm_compute in Hq; injection Hq as <-; repeat split; reflexivity).
Qed.
Lemma ff_AA : all_answered ff_st.
Proof.
  intros r q Hq Hc. destruct r as [|[|[|r]]]; [| | |destruct r; discriminate].
  all: (vm_compute in Hq; injection Hq as <-; vm_compute in Hc; try discriminate; reflexivity).
Qed.
Lemma ff_wt : wf_target ff_st 2.
Proof.
  apply (wt_flush ff_st 2 _ 1 _ 5%N eq_refl eq_refl eq_refl eq_refl).
  apply (wt_op ff_st 1 _ 0 _ eq_refl eq_refl eq_refl). left. reflexivity.
Qed.
Example flush_chain_instance :
  run cex_cfg init (ff_run_pre ++ ff_run_post) = Some ff_st /\
  reach cex_cfg ff_st /\ quiescent cex_cfg ff_st /\ closed ff_st = false /\ NoGroups ff_st /\
  all_answered ff_st /\
  option_map (fun s => map (fun q => (q_kind q, q_flush q, q_target q)) (R s)) (Some ff_st)
    = Some [(KOp, false, None); (KFlush 5%N, false, Some 0); (KFlush 20%N, false, Some 1)] /\
  wf_target ff_st 2 /\ on_wire ff_st 2 = 1.
Proof.
  pose proof ff_Rn as Rn.
  assert (Rc : reach cex_cfg ff_st) by (eapply run_reach; [apply reach_init | exact Rn]).
  split; [exact Rn|]. split; [exact Rc|]. split; [exact ff_Q|]. split; [reflexivity|].
  split; [exact ff_NG|]. split; [exact ff_AA|]. split; [reflexivity|]. split; [exact ff_wt|].
  apply (flush_chain_answered_once cex_cfg ff_st 2 _ 20%N Rc ff_Q eq_refl ff_NG ff_AA eq_refl eq_refl eq_refl ff_wt).
Qed.
