(* Visibility of fids under concurrently executing requests (srv_srv.go: FidNew, FidGet,
   retain, DecRef; srv_fcall.go: attach/auth/walk and their post-handlers).
   A fid enters the table when the request creating it starts (FidNew); the
   implementation sets the fid up (SrvFid.Aux) while handling that request; other
   requests of a pipelining client run at the same time.  The question of C06: can a
   handler be handed a fid the implementation has not set up (nil Aux, the type
   assertion in every Ufs handler panics)?  Model and proofs (small). *)
From Coq Require Import List Bool PeanoNat.
Import ListNotations.

Record fent := mkEnt { e_creating : bool; e_setup : bool }.
Definition tab := list (nat * fent).

Fixpoint tget (t : tab) (k : nat) : option fent :=
  match t with [] => None | (k', e) :: r => if k' =? k then Some e else tget r k end.
Fixpoint tdel (t : tab) (k : nat) : tab :=
  match t with [] => [] | (k', e) :: r => if k' =? k then tdel r k else (k', e) :: tdel r k end.
Definition tset (t : tab) (k : nat) (e : fent) : tab := (k, e) :: tdel t k.

Inductive label :=
| LNew (k : nat)        (* FidNew(k) by a Tattach / Tauth / Twalk that starts executing *)
| LSetup (k : nat)      (* the implementation sets up the fid it is creating (Aux = ...) *)
| LRetain (k : nat)     (* the creating request is answered successfully: retain() *)
| LAbort (k : nat)      (* the creating request fails: the fid is destroyed *)
| LGet (k : nat)        (* FidGet(k) by any other request, at any moment *)
| LClunk (k : nat).     (* a visible fid is clunked / removed *)

(* [guarded]: FidGet refuses fids that are still being created (the code after the fix);
   with [guarded = false] it is the original FidGet. Result: the entry handed to the handler. *)
Definition step (guarded : bool) (t : tab) (l : label) : option (tab * option fent) :=
  match l with
  | LNew k => match tget t k with None => Some (tset t k (mkEnt true false), None) | Some _ => None end
  | LSetup k => match tget t k with
                | Some e => if e_creating e then Some (tset t k (mkEnt true true), None) else None
                | None => None end
  | LRetain k => match tget t k with
                 (* the implementation answers success only after it set the fid up *)
                 | Some e => if e_creating e && e_setup e then Some (tset t k (mkEnt false true), None) else None
                 | None => None end
  | LAbort k => match tget t k with
                | Some e => if e_creating e then Some (tdel t k, None) else None
                | None => None end
  | LGet k => match tget t k with
              | Some e => if guarded && e_creating e then Some (t, None)     (* "unknown fid" *)
                          else Some (t, Some e)                             (* handed to a handler *)
              | None => Some (t, None) end
  | LClunk k => match tget t k with
                | Some e => if e_creating e then None else Some (tdel t k, None)
                | None => None end
  end.

(* run a schedule; collect every entry handed to a handler *)
Fixpoint run (guarded : bool) (t : tab) (ls : list label) : option (tab * list fent) :=
  match ls with
  | [] => Some (t, [])
  | l :: rest =>
    match step guarded t l with
    | None => None
    | Some (t1, o) =>
      match run guarded t1 rest with
      | None => None
      | Some (t2, os) => Some (t2, match o with Some e => e :: os | None => os end)
      end
    end
  end.

Definition Inv (t : tab) : Prop := forall k e, tget t k = Some e -> e_creating e = false -> e_setup e = true.

Lemma tget_tdel : forall t k j, tget (tdel t k) j = if k =? j then None else tget t j.
Proof.
  induction t as [|[k' e] r IH]; intros k j; cbn [tdel tget]; [destruct (k =? j); reflexivity|].
  destruct (Nat.eqb_spec k' k) as [->|Hne]; [rewrite IH; destruct (k =? j); reflexivity|].
  cbn [tget]. rewrite IH. destruct (Nat.eqb_spec k' j) as [<-|]; [|reflexivity].
  destruct (Nat.eqb_spec k k'); [congruence|reflexivity].
Qed.

Lemma tget_tset : forall t k e j, tget (tset t k e) j = if k =? j then Some e else tget t j.
Proof.
  intros t k e j. unfold tset. cbn [tget]. rewrite tget_tdel. destruct (k =? j); reflexivity.
Qed.

Lemma inv_tset : forall t k e, Inv t -> (e_creating e = false -> e_setup e = true) -> Inv (tset t k e).
Proof.
  intros t k e HI He j e' Hg. rewrite tget_tset in Hg. destruct (k =? j).
  - injection Hg as <-. exact He.
  - exact (HI j e' Hg).
Qed.

Lemma inv_tdel : forall t k, Inv t -> Inv (tdel t k).
Proof.
  intros t k HI j e Hg. rewrite tget_tdel in Hg. destruct (k =? j); [discriminate Hg|]. exact (HI j e Hg).
Qed.

Lemma step_inv : forall t l t' o, Inv t -> step true t l = Some (t', o) ->
  Inv t' /\ forall e, o = Some e -> e_setup e = true.
Proof.
  intros t l t' o HI H. destruct l as [k|k|k|k|k|k]; cbn [step andb] in H;
    destruct (tget t k) as [e|] eqn:E; try discriminate H.
  - injection H as <- <-. split; [|discriminate]. apply inv_tset; [assumption|discriminate].
  - destruct (e_creating e); [|discriminate H]. injection H as <- <-. split; [|discriminate].
    apply inv_tset; [assumption|discriminate].
  - destruct (e_creating e && e_setup e); [|discriminate H]. injection H as <- <-. split; [|discriminate].
    apply inv_tset; [assumption|reflexivity].
  - destruct (e_creating e); [|discriminate H]. injection H as <- <-. split; [|discriminate].
    apply inv_tdel. assumption.
  - destruct (e_creating e) eqn:Ec; injection H as <- <-; (split; [assumption|]); [discriminate|].
    intros e' [= <-]. exact (HI k e E Ec).
  - injection H as <- <-. split; [assumption|discriminate].
  - destruct (e_creating e); [discriminate H|]. injection H as <- <-. split; [|discriminate].
    apply inv_tdel. assumption.
Qed.

(* with the guard, every fid handed to a handler has been set up by the implementation,
   for every interleaving of creating requests and other requests of any length *)
Theorem handler_sees_only_set_up_fids : forall ls t t' seen,
  Inv t -> run true t ls = Some (t', seen) -> Forall (fun e => e_setup e = true) seen.
Proof.
  induction ls as [|l rest IH]; intros t t' seen HI H; cbn [run] in H.
  - injection H as _ <-. constructor.
  - destruct (step true t l) as [[t1 o]|] eqn:Es; [|discriminate H].
    destruct (run true t1 rest) as [[t2 os]|] eqn:Er; [|discriminate H]. injection H as _ <-.
    destruct (step_inv _ _ _ _ HI Es) as [HI1 Hseen]. specialize (IH _ _ _ HI1 Er).
    destruct o as [e|]; [|assumption]. constructor; [exact (Hseen e eq_refl)|assumption].
Qed.

Lemma inv_empty : Inv [].
Proof. intros k e H. discriminate. Qed.

Corollary handler_sees_only_set_up_fids_from_start : forall ls t' seen,
  run true [] ls = Some (t', seen) -> Forall (fun e => e_setup e = true) seen.
Proof. intros. eapply handler_sees_only_set_up_fids; eauto using inv_empty. Qed.

(* without the guard (the code before the fix) a pipelined request gets a fid that is not set up:
   Tattach fid 1 starts, Twalk from fid 1 looks it up before Ufs.Attach ran *)
Theorem unguarded_refuted : exists ls t' seen,
  run false [] ls = Some (t', seen) /\ ~ Forall (fun e => e_setup e = true) seen.
Proof.
  exists [LNew 1; LGet 1; LSetup 1; LRetain 1]. eexists. eexists. split; [vm_compute; reflexivity|].
  intro H. inversion H as [|e l He Hl]; subst. cbn in He. discriminate.
Qed.

(* non-vacuity: a schedule in which fids are created, used, clunked and re-created *)
Example guarded_schedule_runs :
  exists t' seen, run true [] [LNew 1; LGet 1; LSetup 1; LRetain 1; LGet 1; LNew 2; LSetup 2; LGet 2; LAbort 2; LGet 2; LClunk 1; LNew 1] = Some (t', seen)
                  /\ length seen = 1.
Proof. eexists. eexists. split; vm_compute; reflexivity. Qed.
