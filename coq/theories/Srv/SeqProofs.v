(* The sequential server model (Srv/Seq.v) against Srv/SeqSpec.v: the invariant of a connection; what
   [process_pre] decides ([pre_spec]), from which forwarding and refusal are read off; the fid table
   against the three specifications, step by step ([step_refines]) and over histories; replies within msize. *)
From Coq Require Import NArith ZArith List Bool PeanoNat Lia.
From V9 Require Import Lib.GoSem Lib.Bytes Lib.ListFacts Gen.Consts Codec.Msg Codec.PackProofs Srv.Seq Srv.SeqSpec Srv.SeqLemmas.
Import ListNotations.
Local Open Scope N_scope.

Lemma veq_steps : forall a b t r, veq a b ->
  veq (spec_step a t r) (spec_step b t r) /\ veq (ospec_step a t r) (ospec_step b t r) /\
  veq (tspec_step a t r) (tspec_step b t r).
Proof.
  intros a b t r H.
  assert (S : forall k u, veq (vset a k u) (vset b k u)) by (intros k u x; rewrite !vget_vset, H; reflexivity).
  assert (D : forall k, veq (vdel a k) (vdel b k)) by (intros k x; rewrite !vget_vdel, H; reflexivity).
  destruct t; auto; destruct r; auto; cbn [spec_step ospec_step tspec_step];
  repeat match goal with |- context [vget b ?x] => rewrite <- (H x) end;
  repeat match goal with |- context [match ?c with _ => _ end] => destruct c end; auto.
Qed.

Lemma fit_text_ok : forall du cap e, 13 + len e <= cap -> fit_text du cap e = e.
Proof.
  intros [] cap e H; unfold fit_text; destruct (_ <=? _) eqn:E; try reflexivity; lia.
Qed.

Lemma is_rerror_wire : forall du r, is_rerror (on_wire du r) = is_rerror r.
Proof. intros. destruct du; [reflexivity|]. destruct r; reflexivity. Qed.

(* a request refused before any reference was taken leaves the connection as it was *)
Lemma refused_with : forall cfg c t sc e c' r ev,
  process_pre cfg c t sc = (c, no_refs, PReject e, []) -> 13 + len (fst e) <= c_msize c ->
  seq_step cfg c t sc = (c', r, ev) ->
  forall txt, is_error_text r txt = bytes_eqb (fst e) txt /\ ev = [] /\ c' = c.
Proof.
  intros until ev. intros P SZ H. rewrite seq_step_eq, P in H. cbv beta iota zeta in H.
  rewrite reply0_reject, fit_rerror, fit_text_ok, (proj1 (post_no_refs _ _ _)), (proj2 (post_no_refs _ _ _)) in H
    by assumption.
  destruct c as [ms [] ft]; inversion H; auto.
Qed.

(* Process: a fid-taking request whose fid is NOFID or names no fid is refused at the lookup *)
Lemma pre_unknown_fid : forall cfg c t sc,
  takes_fid t = true -> (tfid t =? c_NOFID) || negb (is_valid c (tfid t)) = true ->
  process_pre cfg c t sc = (c, no_refs, PReject e_unknownfid, []).
Proof.
  intros cfg c t sc TF E. unfold is_valid in E. unfold process_pre. rewrite TF.
  destruct (tfid t =? c_NOFID); [reflexivity|]. destruct (fget (c_fids c) (tfid t)); [discriminate|].
  destruct (negb (is_tattach t)); reflexivity.
Qed.

Theorem cinv_init : forall msize dotu auth,
  msize <= u32max ->
  CInv (start_cfg msize dotu auth) (conn_init (start_cfg msize dotu auth)).
Proof.
  intros msize dotu auth H. unfold CInv, conn_init, start_cfg, FInv. cbn [c_fids c_msize s_msize].
  destruct (msize <? c_IOHDRSZ) eqn:E; [|apply N.ltb_ge in E];
  repeat split; try constructor; unfold c_IOHDRSZ, c_MSIZE, u32max in *; lia.
Qed.

Lemma cinv_entries : forall cfg c, CInv cfg c ->
  (forall k r, fget (c_fids c) k = Some r -> f_ref r = 1%Z) /\ fget (c_fids c) c_NOFID = None.
Proof. intros cfg c [HI _]. apply FInv_ext in HI. tauto. Qed.

(* the 32-bit guard as written equals the limit over the naturals *)
Theorem count_guard_exact : forall msize cnt,
  c_IOHDRSZ <= msize -> msize <= u32max ->
  count_too_large msize cnt = negb (cnt + c_IOHDRSZ <=? msize).
Proof.
  intros msize cnt H1 H2. unfold count_too_large, two32, c_IOHDRSZ, u32max in *.
  replace ((msize + 4294967296 - 24) mod 4294967296) with (msize - 24).
  - lia.
  - replace (msize + 4294967296 - 24) with ((msize - 24) + 1 * 4294967296) by lia.
    rewrite N.mod_add by lia. rewrite N.mod_small; lia.
Qed.

(* Decision against rule table: on one path of process_pre both are boolean combinations of the same atoms
   (table lookups, type bits, comparisons, the configuration): the rule table is evaluated by deciding its
   atoms one after the other, and the guards of the path contradict every wrong outcome. *)
Ltac rules_fin HF :=
  use_inv HF; cbn in *; subst; rewrite ?N.eqb_refl;
  repeat match goal with H : ?X = _ |- context [?X] => rewrite H end;
  cbv beta delta [andb orb negb];
  repeat (match goal with |- context [match ?X with _ => _ end] => let Y := innermost X in destruct Y eqn:? end;
          cbv beta iota);
  try reflexivity; cbn in *; bool_norm; try discriminate; try congruence.

(* What process_pre decides, for every request in every state that satisfies the invariant: the table keeps
   distinct keys and msize its bounds; the request is forwarded iff its fid is valid and the rule table allows
   it; a request that is not forwarded is rejected (Tversion and Tflush are answered directly); what is
   forwarded is forwarded once, as the client sent it, in the name of the user of its fid. *)
Lemma pre_spec : forall cfg c t sc, CInv cfg c ->
  let '(c1, rf, p, ev) := process_pre cfg c t sc in
  (NoDup (map fst (c_fids c1)) /\ c_IOHDRSZ <= c_msize c1 /\ c_msize c1 <= s_msize cfg) /\
  forwarded ev = fid_ok c t && rules_ok cfg c t sc /\
  (forwarded ev = false -> match t with Tversion_ _ _ | Tflush_ _ => True | _ => exists e, p = PReject e end) /\
  (count_fwd ev <= 1)%nat /\
  (forall t' k u, In (EvFwd t' k u) ev ->
     t' = t /\ k = tfid t /\
     (is_tattach t = false -> exists fr, fget (c_fids c) k = Some fr /\ u = f_user fr)) /\
  (forall t' k, In (EvAuth t' k) ev -> t' = t).
Proof.
  intros cfg [ms du ft] t sc HC. destruct (cinv_entries _ _ HC) as [HF HN]. destruct HC as [[ND _] [M1 [M2 M3]]].
  cbn [c_fids c_msize] in *.
  assert (CG: forall cnt, count_too_large ms cnt = negb (cnt + c_IOHDRSZ <=? ms))
    by (intros; apply count_guard_exact; lia).
  destruct t; pre_cases; repeat match goal with H : context [count_too_large _ _] |- _ => rewrite CG in H end;
  bool_norm; eqb_norm;
  ((split; [|split; [|split; [|split; [|split]]]]);
  [ (* the table and msize *)
    cbn [c_fids c_msize]; try match goal with |- context [if ?b then _ else _] => destruct b eqn:? end;
    repeat split; auto using nodup_incref, nodup_upd_fid, nodup_fset; lia
  | (* the decision and the rule table *)
    unfold fid_ok, rules_ok, is_valid, count_ok, fid_isdir, fid_isauth, lookup_user, open_for_writing;
    cbn [takes_fid tfid c_fids c_msize c_dotu forwarded existsb is_fwd]; use_fget;
    try destruct wnames; rules_fin HF
  | (* not forwarded: rejected *)
    cbn [forwarded existsb is_fwd orb]; intros NF; try discriminate NF; trivial; eauto
  | cbn; repeat constructor
  | (* the events of the path, one by one *)
    intros t' k u HI; cbn [In] in HI; repeat destruct HI as [HI|HI]; try contradiction; try discriminate HI;
    inversion HI; subst; cbn [tfid is_tattach]; (split; [reflexivity | split; [reflexivity|]]);
    intros; try discriminate; eexists; (split; [eassumption | reflexivity])
  | intros t' k HI; cbn [In] in HI; repeat destruct HI as [HI|HI]; try contradiction; try discriminate HI;
    inversion HI; reflexivity ]).
Qed.

(* on a goal that [seq_paths] left: what pre_spec says of the result of process_pre becomes a premise *)
Ltac by_pre_spec HC :=
  match goal with |- context [process_pre ?cfg ?c ?t ?sc] =>
    generalize (pre_spec cfg c t sc HC); destruct (process_pre cfg c t sc) as [[[?c1 ?rf] ?p] ?ev1]
  end.

(* every request, whatever the implementation answers, leaves every remaining
   fid with exactly one reference; msize stays within [IOHDRSZ, srv msize] *)
Theorem cinv_step : forall cfg c t sc c' r ev,
  CInv cfg c -> seq_step cfg c t sc = (c', r, ev) -> CInv cfg c'.
Proof.
  intros until ev. intros HC H. destruct (cinv_entries _ _ HC) as [HF HN].
  split; [apply FInv_ext; split; [|split]|].
  - revert H. seq_paths c' r ev; [auto|]. by_pre_spec HC. intros [[ND _] _] rr _. apply post_tab_nodup, ND.
  - intros k r' Hk. exact (ko_ref (step_key _ _ _ _ _ _ _ k HF HN H) Hk).
  - exact (ko_nofid (step_key _ _ _ _ _ _ _ c_NOFID HF HN H) eq_refl).
  - revert H. seq_paths c' r ev; [auto|]. by_pre_spec HC. intros [[_ M] _] rr _. destruct HC as [_ [_ [_ M3]]]. tauto.
Qed.

(* a request reaches the implementation iff its fid is valid and the rule table allows it *)
Theorem forward_iff_rules : forall cfg c t sc c' r ev,
  CInv cfg c -> seq_step cfg c t sc = (c', r, ev) ->
  forwarded ev = fid_ok c t && rules_ok cfg c t sc.
Proof.
  intros cfg c t sc c' r ev HC. seq_paths c' r ev; [auto|]. by_pre_spec HC.
  intros (_ & P & _) rr _. rewrite forwarded_post. exact P.
Qed.

(* forwarded exactly once, with the fid, user and arguments the client named *)
Theorem forward_faithful : forall cfg c t sc c' r ev,
  CInv cfg c -> seq_step cfg c t sc = (c', r, ev) ->
  (count_fwd ev <= 1)%nat /\
  (forall t' k u, In (EvFwd t' k u) ev ->
     t' = t /\ k = tfid t /\
     (is_tattach t = false -> exists fr, fget (c_fids c) k = Some fr /\ u = f_user fr)) /\
  (forall t' k, In (EvAuth t' k) ev -> t' = t).
Proof.
  intros cfg c t sc c' r ev HC. seq_paths c' r ev; [auto|]. by_pre_spec HC.
  intros (_ & _ & _ & P1 & P2 & P3) rr _. rewrite count_fwd_post.
  split; [exact P1|split]; intros; [eapply P2|eapply P3]; eapply in_post_ev; eauto.
Qed.

(* a refused request is answered with an error *)
Theorem refuse_is_error : forall cfg c t sc c' r ev,
  CInv cfg c -> seq_step cfg c t sc = (c', r, ev) ->
  forwarded ev = false ->
  match t with Tversion_ _ _ | Tflush_ _ => True | _ => is_rerror r = true end.
Proof.
  intros cfg c t sc c' r ev HC. seq_paths c' r ev; [intros c' r ev H NF; rewrite is_rerror_wire; exact (H NF)|].
  by_pre_spec HC. intros (_ & _ & P & _) rr -> NF. rewrite forwarded_post in NF. specialize (P NF).
  destruct t; trivial; destruct P as [e ->]; rewrite reply0_reject, fit_rerror; reflexivity.
Qed.

(* user, open state and type bits of every fid follow the three specifications step by step *)
Lemma step_refines : forall cfg c t sc c' r ev,
  CInv cfg c -> seq_step cfg c t sc = (c', r, ev) ->
  veq (abs (c_fids c')) (spec_step (abs (c_fids c)) t r) /\
  veq (oabs (c_fids c')) (ospec_step (oabs (c_fids c)) t r) /\
  veq (tabs (c_fids c')) (tspec_step (tabs (c_fids c)) t r).
Proof.
  intros until ev. intros HC H. destruct (cinv_entries _ _ HC) as [HF HN].
  repeat split; intro k; rewrite ?vget_abs, ?vget_oabs, ?vget_tabs; apply (step_key _ _ _ _ _ _ _ k HF HN H).
Qed.

(* the concrete table follows the abstract fid set step by step *)
Theorem fid_table_refines_spec : forall cfg c t sc c' r ev,
  CInv cfg c -> seq_step cfg c t sc = (c', r, ev) ->
  veq (abs (c_fids c')) (spec_step (abs (c_fids c)) t r).
Proof.
  intros until ev. intros HC H. apply (step_refines _ _ _ _ _ _ _ HC H).
Qed.

(* A specification [S] that the table, seen through [A], follows step by step is followed over whole histories. *)
Section Run.
  Variables (A : ftab -> valid) (S : valid -> msg -> msg -> valid).
  Hypothesis S_veq : forall a b t r, veq a b -> veq (S a t r) (S b t r).
  Hypothesis step_ok : forall cfg c t sc c' r ev,
    CInv cfg c -> seq_step cfg c t sc = (c', r, ev) -> veq (A (c_fids c')) (S (A (c_fids c)) t r).

  Let Rn := fix run (v : valid) (h : list (msg * msg)) : valid :=
    match h with [] => v | (t, r) :: rest => run (S v t r) rest end.

  Lemma veq_run : forall h a b, veq a b -> veq (Rn a h) (Rn b h).
  Proof. induction h as [|[t r] h IH]; intros; simpl; auto. Qed.

  Lemma refines_run : forall cfg h c c' out,
    CInv cfg c -> seq_run cfg c h = (c', out) ->
    length out = length h /\ veq (A (c_fids c')) (Rn (A (c_fids c)) (combine (map fst h) (map fst out))).
  Proof.
    induction h as [|[t sc] h IH]; intros c c' out HC H; simpl in H.
    - inversion H; subst. split; [reflexivity|]. intro k; reflexivity.
    - destruct (seq_step cfg c t sc) as [[c1 r] ev] eqn:E1.
      destruct (seq_run cfg c1 h) as [c2 out'] eqn:E2.
      inversion H; subst.
      destruct (IH _ _ _ (cinv_step _ _ _ _ _ _ _ HC E1) E2) as [L V].
      split; [simpl; congruence|].
      simpl. intro k. rewrite V. apply veq_run. eapply step_ok; eauto.
  Qed.
End Run.

(* the concrete table follows the abstract fid set over whole histories *)
Theorem fid_table_refines_spec_run : forall cfg h c c' out,
  CInv cfg c -> seq_run cfg c h = (c', out) ->
  length out = length h /\
  veq (abs (c_fids c')) (spec_run (abs (c_fids c)) (combine (map fst h) (map fst out))).
Proof. exact (refines_run abs spec_step (fun a b t r H => proj1 (veq_steps a b t r H)) fid_table_refines_spec). Qed.

(* a request naming an invalid fid is refused with 'unknown fid' and nothing is forwarded *)
Theorem unknown_fid_refused : forall cfg c t sc c' r ev,
  CInv cfg c -> takes_fid t = true -> is_valid c (tfid t) = false ->
  13 + len c_Eunknownfid_text <= c_msize c ->
  seq_step cfg c t sc = (c', r, ev) ->
  is_error_text r c_Eunknownfid_text = true /\ forwarded ev = false /\ c' = c.
Proof.
  intros until ev. intros _ TF IV SZ H.
  assert (P := pre_unknown_fid cfg c t sc TF). rewrite IV, orb_true_r in P.
  destruct (refused_with _ _ _ _ _ _ _ _ (P eq_refl) SZ H c_Eunknownfid_text) as (-> & -> & ->). auto.
Qed.

(* binding an already valid fid is refused with 'fid already in use' *)
Lemma pre_in_use : forall cfg c t sc k,
  CInv cfg c -> is_valid c k = true ->
  (exists afid un an num, t = Tattach_ k afid un an num) \/ (exists un an num, t = Tauth_ k un an num) ->
  process_pre cfg c t sc = (c, no_refs, PReject e_inuse, []).
Proof.
  intros cfg [ms du ft] t sc k HC IV Ht. destruct (cinv_entries _ _ HC) as [_ HN].
  unfold is_valid in IV. cbn [c_fids] in *. destruct (fget ft k) eqn:G; [|discriminate].
  destruct Ht as [(afid & un & an & num & ->) | (un & an & num & ->)]; pre_cases; try reflexivity;
  bool_norm; eqb_norm; congruence.
Qed.

Theorem fid_in_use_refused_attach : forall cfg c fid afid un an num sc c' r ev,
  CInv cfg c -> is_valid c fid = true -> 13 + len c_Einuse_text <= c_msize c ->
  seq_step cfg c (Tattach_ fid afid un an num) sc = (c', r, ev) ->
  is_error_text r c_Einuse_text = true /\ forwarded ev = false /\ c' = c.
Proof.
  intros until ev. intros HC IV SZ H.
  destruct (refused_with _ _ _ _ _ _ _ _ (pre_in_use cfg c _ sc fid HC IV ltac:(left; eauto 6)) SZ H c_Einuse_text)
    as (-> & -> & ->). auto.
Qed.

Theorem fid_in_use_refused_auth : forall cfg c afid un an num sc c' r ev,
  CInv cfg c -> is_valid c afid = true -> 13 + len c_Einuse_text <= c_msize c ->
  seq_step cfg c (Tauth_ afid un an num) sc = (c', r, ev) ->
  is_error_text r c_Einuse_text = true /\ forwarded ev = false /\ c' = c.
Proof.
  intros until ev. intros HC IV SZ H.
  destruct (refused_with _ _ _ _ _ _ _ _ (pre_in_use cfg c _ sc afid HC IV ltac:(right; eauto 6)) SZ H c_Einuse_text)
    as (-> & -> & ->). auto.
Qed.

(* FidDestroy: at most once per fid and request; exactly once when a valid fid
   becomes invalid; never for a fid that stays valid *)
Theorem destroy_exactly_once : forall cfg c t sc c' r ev k,
  CInv cfg c -> seq_step cfg c t sc = (c', r, ev) ->
  (count_destroy k ev <= 1)%nat /\
  (is_valid c k = true -> is_valid c' k = false -> count_destroy k ev = 1%nat) /\
  (is_valid c' k = true -> count_destroy k ev = 0%nat).
Proof.
  intros until k. intros HC H.
  destruct (cinv_entries _ _ HC) as [HF HN].
  destruct (step_key _ _ _ _ _ _ _ k HF HN H) as [_ _ _ A B C _ _]. unfold is_valid.
  split; [exact A|]. split.
  - destruct (fget (c_fids c) k); [|discriminate]. destruct (fget (c_fids c') k); [discriminate|].
    intros _ _. apply B; congruence.
  - destruct (fget (c_fids c') k); [|discriminate]. intros _. apply C. discriminate.
Qed.

(* whether a fid is open, and with which mode, is determined by the requests and
   the replies they got *)
Theorem open_state_follows_history : forall cfg c t sc c' r ev,
  CInv cfg c -> seq_step cfg c t sc = (c', r, ev) ->
  veq (oabs (c_fids c')) (ospec_step (oabs (c_fids c)) t r).
Proof.
  intros until ev. intros HC H. apply (step_refines _ _ _ _ _ _ _ HC H).
Qed.

(* ... and so are its type bits *)
Theorem fid_type_follows_history : forall cfg c t sc c' r ev,
  CInv cfg c -> seq_step cfg c t sc = (c', r, ev) ->
  veq (tabs (c_fids c')) (tspec_step (tabs (c_fids c)) t r).
Proof.
  intros until ev. intros HC H. apply (step_refines _ _ _ _ _ _ _ HC H).
Qed.

Theorem open_state_follows_history_run : forall cfg h c c' out,
  CInv cfg c -> seq_run cfg c h = (c', out) ->
  length out = length h /\
  veq (oabs (c_fids c')) (ospec_run (oabs (c_fids c)) (combine (map fst h) (map fst out))).
Proof. exact (refines_run oabs ospec_step (fun a b t r H => proj1 (proj2 (veq_steps a b t r H))) open_state_follows_history). Qed.

Theorem fid_type_follows_history_run : forall cfg h c c' out,
  CInv cfg c -> seq_run cfg c h = (c', out) ->
  length out = length h /\
  veq (tabs (c_fids c')) (tspec_run (tabs (c_fids c)) (combine (map fst h) (map fst out))).
Proof. exact (refines_run tabs tspec_step (fun a b t r H => proj2 (proj2 (veq_steps a b t r H))) fid_type_follows_history). Qed.

(* a request answered with an error, other than Tremove, changes neither the
   open state nor the type of any fid (nor the fid set) *)
Theorem error_changes_no_attribute : forall cfg c t sc c' r ev,
  CInv cfg c -> seq_step cfg c t sc = (c', r, ev) ->
  is_rerror r = true -> (forall fid, t <> Tremove_ fid) ->
  veq (abs (c_fids c')) (abs (c_fids c)) /\
  veq (oabs (c_fids c')) (oabs (c_fids c)) /\
  veq (tabs (c_fids c')) (tabs (c_fids c)).
Proof.
  intros until ev. intros HC H ER NR. generalize (step_refines _ _ _ _ _ _ _ HC H).
  destruct r; try discriminate ER. destruct t; try (exfalso; exact (NR _ eq_refl)); exact (fun V => V).
Qed.

(* Tremove, whatever the reply, removes that fid and touches no other *)
Theorem remove_removes_key_only : forall cfg c fid sc c' r ev,
  CInv cfg c -> seq_step cfg c (Tremove_ fid) sc = (c', r, ev) ->
  veq (abs (c_fids c')) (vdel (abs (c_fids c)) fid) /\
  veq (oabs (c_fids c')) (vdel (oabs (c_fids c)) fid) /\
  veq (tabs (c_fids c')) (vdel (tabs (c_fids c)) fid).
Proof.
  intros until ev. intros HC H. exact (step_refines _ _ _ _ _ _ _ HC H).
Qed.

(* an open that is not answered with Ropen leaves every open state as it was
   (in particular a refused second Topen does not close the fid) *)
Theorem failed_open_keeps_open_state : forall cfg c fid mode sc c' r ev,
  CInv cfg c -> seq_step cfg c (Topen_ fid mode) sc = (c', r, ev) ->
  is_rtype r c_Ropen = false ->
  veq (oabs (c_fids c')) (oabs (c_fids c)).
Proof.
  intros until ev. intros HC H NR. generalize (open_state_follows_history _ _ _ _ _ _ _ HC H).
  destruct r; try discriminate NR; exact (fun V => V).
Qed.

(* a walk that is not complete (fewer qids than names) changes no attribute of
   any fid (in particular an in-place partial walk leaves the type of the fid) *)
Theorem partial_walk_changes_no_attribute : forall cfg c fid nf names sc c' qs ev,
  CInv cfg c -> seq_step cfg c (Twalk_ fid nf names) sc = (c', Rwalk_ qs, ev) ->
  length qs <> length names ->
  veq (abs (c_fids c')) (abs (c_fids c)) /\
  veq (oabs (c_fids c')) (oabs (c_fids c)) /\
  veq (tabs (c_fids c')) (tabs (c_fids c)).
Proof.
  intros until ev. intros HC H NE. generalize (step_refines _ _ _ _ _ _ _ HC H).
  apply Nat.eqb_neq in NE. cbn [spec_step ospec_step tspec_step]. rewrite NE. exact (fun V => V).
Qed.

(* Non-vacuity: attach 0 (directory), walk 0->1 to a file, open 1 with mode 2,
   open 1 again (refused: fid 1 stays open with mode 2), partial in-place walk
   from 0 (fid 0 stays a directory); the specifications say the same. *)
Example attributes_nonvacuous :
  let cfg := start_cfg 8192 true false in
  let qd := mkQid 128 0 1 in
  let qf := mkQid 0 0 2 in
  let h := [(Tattach_ 0 c_NOFID [] [] 5, mkScript (AOk (Rattach_ qd)) None);
            (Twalk_ 0 1 [[102]], mkScript (AOk (Rwalk_ [qf])) None);
            (Topen_ 1 2, mkScript (AOk (Ropen_ qf 0)) None);
            (Topen_ 1 0, mkScript (AOk (Ropen_ qf 0)) None);
            (Twalk_ 0 0 [[102]; [103]], mkScript (AOk (Rwalk_ [qf])) None)] in
  let '(c, out) := seq_run cfg (conn_init cfg) h in
  let hist := combine (map fst h) (map fst out) in
  map is_rerror (map fst out) = [false; false; false; true; false] /\
  vget (oabs (c_fids c)) 1 = Some 3 /\ vget (ospec_run [] hist) 1 = Some 3 /\
  vget (oabs (c_fids c)) 0 = Some 0 /\
  vget (tabs (c_fids c)) 0 = Some 128 /\ vget (tspec_run [] hist) 0 = Some 128 /\
  vget (tabs (c_fids c)) 1 = Some 0 /\ vget (tspec_run [] hist) 1 = Some 0.
Proof. vm_compute. repeat split; reflexivity. Qed.

(* Why [ocode] forgets the mode of a fid that is not open: the handler records the
   requested mode BEFORE the implementation is asked and does not take it back when
   the open fails.  The raw f_omode therefore changes under a request answered with
   Rerror; no rule reads it on a fid that is not open. *)
Example omode_of_unopened_fid_is_not_restored :
  let cfg := start_cfg 8192 true false in
  let qf := mkQid 0 0 2 in
  let h := [(Tattach_ 0 c_NOFID [] [] 5, mkScript (AOk (Rattach_ qf)) None);
            (Topen_ 0 2, mkScript (AErr [101] 1) None)] in
  let '(c, out) := seq_run cfg (conn_init cfg) h in
  map is_rerror (map fst out) = [false; true] /\
  option_map f_omode (fget (c_fids c) 0) = Some 2 /\
  option_map f_opened (fget (c_fids c) 0) = Some false /\
  vget (oabs (c_fids c)) 0 = Some 0.
Proof. vm_compute. repeat split; reflexivity. Qed.

(* a request the rule table refuses is answered with an error *)
Lemma rules_refuse : forall cfg c t sc c' r ev,
  CInv cfg c -> seq_step cfg c t sc = (c', r, ev) -> rules_ok cfg c t sc = false ->
  match t with Tversion_ _ _ | Tflush_ _ => True | _ => is_rerror r = true end /\ forwarded ev = false.
Proof.
  intros until ev. intros HC H R.
  assert (F : forwarded ev = false) by (rewrite (forward_iff_rules _ _ _ _ _ _ _ HC H), R; apply andb_false_r).
  split; [exact (refuse_is_error _ _ _ _ _ _ _ HC H F) | exact F].
Qed.

Theorem fid_in_use_refused_walk : forall cfg c fid nf names sc c' r ev,
  CInv cfg c -> is_valid c nf = true -> fid <> nf ->
  seq_step cfg c (Twalk_ fid nf names) sc = (c', r, ev) ->
  is_rerror r = true /\ forwarded ev = false /\ veq (abs (c_fids c')) (abs (c_fids c)).
Proof.
  intros until ev. intros HC IV NE H.
  destruct (rules_refuse _ _ _ _ _ _ _ HC H) as [A1 A2].
  { cbn [rules_ok]. destruct (fget (c_fids c) fid); [|reflexivity].
    apply N.eqb_neq in NE. rewrite NE, IV, andb_false_r, andb_false_r. reflexivity. }
  repeat split; auto. apply (error_changes_no_attribute _ _ _ _ _ _ _ HC H A1). discriminate.
Qed.

(* Topen on a fid that is already open is refused, nothing is forwarded, nothing changes *)
Theorem second_open_refused : forall cfg c fid mode fr sc c' r ev,
  CInv cfg c -> fget (c_fids c) fid = Some fr -> f_opened fr = true ->
  seq_step cfg c (Topen_ fid mode) sc = (c', r, ev) ->
  is_rerror r = true /\ forwarded ev = false /\
  veq (oabs (c_fids c')) (oabs (c_fids c)) /\ veq (tabs (c_fids c')) (tabs (c_fids c)).
Proof.
  intros until ev. intros HC G OP H.
  destruct (rules_refuse _ _ _ _ _ _ _ HC H) as [A1 A2]; [cbn [rules_ok]; rewrite G, OP; reflexivity|].
  split; [exact A1|split; [exact A2|]].
  destruct (error_changes_no_attribute _ _ _ _ _ _ _ HC H A1 ltac:(intros; discriminate)) as [_ K]. exact K.
Qed.

(* with AuthOps, no attach reaches the implementation unless AuthCheck accepted it *)
Theorem auth_gate : forall cfg c t sc c' r ev t' k u,
  CInv cfg c -> s_auth cfg = true -> seq_step cfg c t sc = (c', r, ev) ->
  In (EvFwd t' k u) ev -> is_tattach t' = true ->
  sc_authcheck sc = None /\ exists a, In (EvAuthCheck k a) ev.
Proof.
  intros until u. intros HC SA H HI TA.
  destruct (forward_faithful _ _ _ _ _ _ _ HC H) as [_ [F _]].
  destruct (F _ _ _ HI) as [Et _]. subst t'. clear F.
  destruct t; try discriminate TA. destruct c as [ms du ft]. revert H HI. seq_paths c' r ev; [auto|].
  pre_cases; intros rr _ HI; (apply in_post_ev in HI; [|reflexivity]); cbn [In] in HI;
  repeat destruct HI as [HI|HI]; try contradiction; try discriminate HI; inversion HI; subst;
  (split; [first [assumption|reflexivity] | eexists; apply in_or_app; left; cbn [In]; left; reflexivity]).
Qed.

Lemma len_rerror : forall du e n,
  len (spec_encode du 0 (Rerror_ e n)) = 9 + len e + (if du then 4 else 0).
Proof.
  intros. rewrite len_spec_encode. unfold layout, enc_fields.
  destruct du; cbn [flat_map enc_field app]; rewrite ?len_app, ?len_le_enc;
  change (len []) with 0; lia.
Qed.

Lemma len_rversion : forall du m v, len (spec_encode du 0 (Rversion_ m v)) = 13 + len v.
Proof.
  intros. rewrite len_spec_encode. unfold layout, enc_fields.
  cbn [flat_map enc_field app]. rewrite ?len_app, ?len_le_enc. change (len []) with 0. lia.
Qed.

Lemma encode_norm : forall du r, spec_encode du 0 (norm_msg du r) = spec_encode du 0 r.
Proof. intros. destruct du; [reflexivity|]. destruct r; reflexivity. Qed.

Lemma fit_error_len : forall du cap e n, c_IOHDRSZ <= cap ->
  len (spec_encode du 0 (fit_error du cap e n)) <= cap.
Proof.
  intros du cap e n H. unfold c_IOHDRSZ in H. unfold fit_error.
  destruct (7 + 2 + len e + (if du then 4 else 0) <=? cap) eqn:E; rewrite len_rerror.
  - apply N.leb_le in E. lia.
  - assert (L : len (firstn (N.to_nat (cap - 13)) e) <= cap - 13).
    { unfold len. pose proof (firstn_le_length (N.to_nat (cap - 13)) e). lia. }
    destruct du; lia.
Qed.

Lemma fit_len : forall du cap r, c_IOHDRSZ <= cap -> len (spec_encode du 0 (fit du cap r)) <= cap.
Proof.
  intros du cap r H.
  assert (G : forall r', len (spec_encode du 0
              (if len (spec_encode du 0 r') <=? cap then r'
               else fit_error du cap e_bufsmall_text c_EINVAL)) <= cap).
  { intros r'. destruct (len (spec_encode du 0 r') <=? cap) eqn:E.
    - apply N.leb_le. exact E.
    - apply fit_error_len. exact H. }
  unfold fit. destruct r;
  lazymatch goal with
  | |- context [if _ then _ else _] => apply G
  | _ => apply fit_error_len; exact H
  end.
Qed.

Theorem rversion_min : forall cfg c ms ver sc,
  CInv cfg c ->
  seq_step cfg c (Tversion_ ms ver) sc =
  if ms <? c_IOHDRSZ then (c, on_wire (c_dotu c) (fit (c_dotu c) (c_msize c) (Rerror_ (fst e_msize) (snd e_msize))), [])
  else
    let m := N.min ms (c_msize c) in
    let du := bytes_eqb ver ver_u && s_dotu cfg in
    (mkConn m du (c_fids c), Rversion_ m (if du then ver_u else ver_p), []).
Proof.
  intros cfg [m du ft] ms ver sc [_ [M1 _]]. cbn [c_msize c_dotu c_fids] in *.
  rewrite seq_step_eq. pre_cases; rewrite (proj1 (post_no_refs _ _ _)), (proj2 (post_no_refs _ _ _)).
  - rewrite reply0_reject. reflexivity.
  - apply N.ltb_ge in Heqb. set (du' := bytes_eqb ver ver_u && s_dotu cfg).
    replace (if ms <? m then ms else m) with (N.min ms m)
      by (destruct (ms <? m) eqn:E1; [apply N.ltb_lt in E1; apply N.min_l | apply N.ltb_ge in E1; apply N.min_r]; lia).
    cbn [reply0]. unfold fit. rewrite len_rversion.
    replace (13 + len (if du' then ver_u else ver_p) <=? m) with true
      by (symmetry; apply N.leb_le; unfold c_IOHDRSZ in M1; destruct du'; cbn; lia).
    destruct du'; reflexivity.
Qed.

(* no reply is longer than the msize in force when its request arrived *)
Theorem no_reply_exceeds_msize : forall cfg c t sc c' r ev,
  CInv cfg c -> seq_step cfg c t sc = (c', r, ev) ->
  len (spec_encode (c_dotu c') 0 r) <= c_msize c.
Proof.
  intros until ev. intros [_ [M1 _]] H. rewrite seq_step_eq in H.
  destruct (process_pre cfg c t sc) as [[[c1 rf] p] ev1]. cbv zeta in H.
  inversion H; subst. unfold with_fids, on_wire. cbn [c_dotu].
  rewrite encode_norm. apply fit_len. exact M1.
Qed.

(* the Rversion also respects the msize it announces *)
Theorem rversion_fits_new_msize : forall cfg c ms ver sc c' r ev,
  CInv cfg c -> seq_step cfg c (Tversion_ ms ver) sc = (c', r, ev) ->
  len (spec_encode (c_dotu c') 0 r) <= c_msize c'.
Proof.
  intros until ev. intros HC H. pose proof HC as [_ [M1 _]].
  rewrite rversion_min in H by exact HC. clear HC.
  remember (ms <? c_IOHDRSZ) as b eqn:E in H. symmetry in E. destruct b.
  - injection H; intros; subst. unfold on_wire. rewrite encode_norm.
    exact (fit_error_len _ _ _ _ M1).
  - cbv zeta in H. injection H; intros; subst. cbn [c_dotu c_msize]. rewrite len_rversion.
    apply N.ltb_ge in E. unfold c_IOHDRSZ in *.
    destruct (bytes_eqb ver ver_u && s_dotu cfg);
    [change (len ver_u) with 8 | change (len ver_p) with 6]; lia.
Qed.
