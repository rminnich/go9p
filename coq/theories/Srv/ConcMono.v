(* How a single request evolves along a step: immutable and monotone fields, the program counter. *)
From Coq Require Import List Lia.
From V9 Require Import Lib.GoSem Gen.Consts Srv.Conc Srv.ConcInv Srv.ConcStep Srv.ConcWF.
Import ListNotations.

Definition evol (q q' : rq) : Prop :=
  q_tag q' = q_tag q /\ q_kind q' = q_kind q /\ q_after q' = q_after q /\
  (q_flush q = true -> q_flush q' = true) /\
  (q_resp q = true -> q_resp q' = true) /\
  (q_saved q = true -> q_saved q' = true) /\
  (q_called q = true -> q_called q' = true) /\
  (q_flushop q = true -> q_flushop q' = true) /\
  (q_buf q <> None -> q_buf q' <> None) /\
  incl (q_packs q) (q_packs q').

Lemma evol_refl : forall q, evol q q.
Proof. unfold evol; intuition. Qed.

Lemma evol_trans : forall a b c, evol a b -> evol b c -> evol a c.
Proof.
  unfold evol; intros; intuition; try congruence.
  eapply incl_tran; eauto.
Qed.

(* goal: evol q q' with q' written with the with_* operations *)
Ltac evol_tac :=
  unfold evol, f1_q, tail_q, lnk, with_flushreq; simpl;
  repeat split; intros; auto; try discriminate; try congruence;
  try apply incl_refl; try (apply incl_tl; apply incl_refl);
  try match goal with |- context [if ?b then _ else _] => destruct b; auto end.

Definition qmove (c : cfg) (s : st) (l : label) (r : nat) (q q' : rq) : Prop := q' = q \/ qstep c s l r q q'.

Lemma step_getq_old : forall c s l s' r q q', WF s -> Step c s l s' ->
  getq s r = Some q -> getq s' r = Some q' -> qmove c s l r q q'.
Proof.
  intros c s l s' r q q' W H Hq Hq'.
  destruct (step_getq _ _ _ _ W H _ _ Hq') as [(q0 & Hq0 & M) | (Hn & _)]; [|congruence].
  assert (q0 = q) by congruence. subst q0. exact M.
Qed.

Lemma qmove_evol : forall c s l r q q', qmove c s l r q q' -> evol q q'.
Proof.
  intros c s l r q q' [-> | Q]; [apply evol_refl|]. destruct Q.
  all: evol_tac.
Qed.

Lemma step_evol : forall c s l s', WF s -> Step c s l s' ->
  forall r q, getq s r = Some q -> exists q', getq s' r = Some q' /\ evol q q'.
Proof.
  intros c s l s' W H r q Hq.
  pose proof (step_length _ _ _ _ H) as L. pose proof (getq_lt _ _ _ Hq) as L2.
  destruct (getq_some s' r) as (q' & Hq'); [lia|].
  exists q'. split; auto. eapply qmove_evol, step_getq_old; eauto.
Qed.

(* the control flow of SrvReq.process: from p (with the reqFlush bit as read at the start) to p' *)
Definition pc_next (p : wpc) (fl : bool) (p' : wpc) : Prop :=
  match p with
  | WWait | WDone => False
  | WSpawned => p' = if fl then WDone else WProc
  | WProc => p' = WInOp \/ p' = WTail \/ exists t, p' = WF2 t
  | WInOp | WInFlushOp _ => p' = WTail
  | WF2 t => exists w, p' = WF3 t w
  | WF3 t w => p' = WTail \/ (w = true /\ p' = WInFlushOp t)
  | WTail => p' = WDone
  end.

Definition is_spawn (s : st) (l : label) (r : nat) : Prop :=
  exists fi f, l = LR fi /\ nth_error (F s) fi = Some f /\ f_pc f = R5 /\ f_next f = Some r.

Lemma qmove_pc : forall c s l r q q', qmove c s l r q q' ->
  q_pc q' = q_pc q \/ pc_next (q_pc q) (q_flush q) (q_pc q') \/ (q_pc q' = WSpawned /\ is_spawn s l r).
Proof.
  intros c s l r q q' [-> | Q]; auto. destruct Q.
  all: try (left; reflexivity).
  all: try solve [right; left; simpl; repeat match goal with H : _ = _ |- _ => rewrite H end; simpl; eauto].
  - right. left. unfold f1_q, f1_pc. simpl. rewrite Hpc. destruct (q_kind qt); simpl; eauto.
  - right. left. unfold f1_q, f1_pc. simpl. rewrite Hpc. destruct (q_kind q); simpl; eauto.
  - right. right. unfold is_spawn. eauto 8.
Qed.

Lemma qmove_called : forall c s l r q q', qmove c s l r q q' ->
  q_called q' = q_called q \/ (l = LOpCall r /\ q_pc q = WProc /\ q_called q' = true).
Proof. intros c s l r q q' [-> | Q]; auto. destruct Q; auto. Qed.

Lemma qmove_target : forall c s l r q q', qmove c s l r q q' ->
  q_target q' = q_target q \/ (l = LF1 r /\ q_pc q = WProc /\ q_pc q' <> WProc).
Proof.
  intros c s l r q q' [-> | Q]; auto. destruct Q; auto.
  all: right; repeat split; auto; apply f1_pc_not.
Qed.

Lemma qmove_prev : forall c s l r q q', qmove c s l r q q' ->
  q_prev q' = q_prev q \/
  exists tag k, l = LArrive tag k /\ alookup (reqs s) tag = Some r /\ q_prev q' = Some (length (R s)).
Proof. intros c s l r q q' [-> | Q]; auto. destruct Q; eauto 6. Qed.

Definition qb (s : st) (r : nat) (g : rq -> bool) : bool :=
  match getq s r with Some q => g q | None => false end.

Definition qo (s : st) (r : nat) (g : rq -> option nat) : option nat :=
  match getq s r with Some q => g q | None => None end.

Lemma qb_getq : forall s r g q, getq s r = Some q -> qb s r g = g q.
Proof. intros s r g q H. unfold qb. rewrite H. reflexivity. Qed.

Lemma qo_getq : forall s r g q, getq s r = Some q -> qo s r g = g q.
Proof. intros s r g q H. unfold qo. rewrite H. reflexivity. Qed.

Lemma qb_inv : forall s r g, qb s r g = true -> exists q, getq s r = Some q /\ g q = true.
Proof. unfold qb. intros s r g H. destruct (getq s r) as [q|]; [eauto | discriminate]. Qed.

Lemma qo_inv : forall s r g a, qo s r g = Some a -> exists q, getq s r = Some q /\ g q = Some a.
Proof. unfold qo. intros s r g a H. destruct (getq s r) as [q|]; [eauto | discriminate]. Qed.

Lemma qb_true_lt : forall s b g, qb s b g = true -> b < length (R s).
Proof. intros s b g H. destruct (qb_inv _ _ _ H) as (q & Hq & _). eapply getq_lt; eauto. Qed.

Lemma qb_mono : forall c s l s' r, WF s -> Step c s l s' ->
  (qb s r q_flush = true -> qb s' r q_flush = true) /\
  (qb s r q_resp = true -> qb s' r q_resp = true).
Proof.
  intros c s l s' r W H. unfold qb. destruct (getq s r) eqn:Hq.
  - destruct (step_evol _ _ _ _ W H _ _ Hq) as (q' & -> & E). unfold evol in E. intuition.
  - split; discriminate.
Qed.

Lemma qo_after_mono : forall c s l s' b a, WF s -> Step c s l s' ->
  qo s b q_after = Some a -> qo s' b q_after = Some a.
Proof.
  intros c s l s' b a W H. unfold qo. destruct (getq s b) eqn:Hq; [|discriminate].
  destruct (step_evol _ _ _ _ W H _ _ Hq) as (q' & -> & _ & _ & -> & _). auto.
Qed.

Lemma qo_after_back : forall c s l s' b a, WF s -> Step c s l s' -> b < length (R s) ->
  qo s' b q_after = Some a -> qo s b q_after = Some a.
Proof.
  intros c s l s' b a W H Lt. unfold qo. destruct (getq_some s b Lt) as (q & Hq). rewrite Hq.
  destruct (step_evol _ _ _ _ W H _ _ Hq) as (q' & -> & _ & _ & -> & _). auto.
Qed.
