(* Invariants about a single request: RInv, one record of what status bits, program counter and
   ghost fields of a request imply about each other; uncalled, a request that will never be
   handed to the implementation. *)
From Coq Require Import NArith List.
From V9 Require Import Lib.GoSem Gen.Consts Srv.Conc Srv.ConcInv Srv.ConcStep Srv.ConcWF Srv.ConcMono Srv.ConcCount
  Srv.ConcContent Srv.ConcWin.
Import ListNotations.

Definition unstarted (p : wpc) : Prop := p = WWait \/ p = WSpawned.
(* not yet past the dispatch in Process() *)
Definition pre (p : wpc) : Prop := match p with WWait | WSpawned | WProc => True | _ => False end.
Definition running (p : wpc) : Prop := match p with WWait | WSpawned | WDone => False | _ => True end.

Lemma pre_dec : forall p, {pre p} + {~ pre p}.
Proof. destruct p; simpl; auto. Qed.

Lemma pc_next_started : forall p fl p', pc_next p fl p' -> ~ unstarted p'.
Proof. intros p fl p' N U. destruct p, fl; simpl in N; destruct U; subst; firstorder discriminate. Qed.

Lemma pc_next_proc : forall p fl, pc_next p fl WProc -> p = WSpawned /\ fl = false.
Proof. intros p fl N. destruct p, fl; simpl in N; firstorder discriminate. Qed.

Lemma pc_next_pre : forall p fl p', pc_next p fl p' -> pre p' -> p' = WProc.
Proof.
  intros p fl p' N P. destruct p'; simpl in P; try contradiction; auto; elim (pc_next_started _ _ _ N);
    [left | right]; reflexivity.
Qed.

Lemma f1_pc_post : forall qt t, ~ pre (f1_pc qt t) /\ ~ unstarted (f1_pc qt t).
Proof.
  intros. destruct (f1_pc_cases qt t) as [(-> & _) | (-> & _)]; split; try (intros [X | X]; discriminate);
    intro X; exact X.
Qed.

(* a request only moves forward: the one backward edge of [qmove_pc], a spawn, starts from WWait *)
Lemma qmove_pc_fwd : forall c s l r q q', GInv s -> getq s r = Some q -> qmove c s l r q q' ->
  q_pc q' = q_pc q \/ pc_next (q_pc q) (q_flush q) (q_pc q') \/ (q_pc q = WWait /\ q_pc q' = WSpawned).
Proof.
  intros c s l r q q' G Hq M. destruct (qmove_pc _ _ _ _ _ _ M) as [E | [N | (E & Sp)]]; auto.
  right. right. split; auto. destruct Sp as (fi & f & _ & Hn & Hpc & Hnx).
  destruct (spawn_waiting s f r G (nth_error_In _ _ Hn) Hpc Hnx) as (q0 & Hq0 & X). congruence.
Qed.

Lemma not_pre_step : forall c s l s' r q q', WF s -> GInv s -> Step c s l s' ->
  getq s r = Some q -> getq s' r = Some q' -> ~ pre (q_pc q) -> ~ pre (q_pc q').
Proof.
  intros c s l s' r q q' W G H Hq Hq' N P.
  destruct (qmove_pc_fwd _ _ _ _ _ _ G Hq (step_getq_old _ _ _ _ _ _ _ W H Hq Hq')) as [E | [X | (X & _)]].
  - rewrite E in P. auto.
  - rewrite (pc_next_pre _ _ _ X P) in X. destruct (pc_next_proc _ _ X) as (Y & _). rewrite Y in N. apply N. exact I.
  - rewrite X in N. apply N. exact I.
Qed.

Definition kflush (q : rq) : Prop := exists old, q_kind q = KFlush old.

Record RInv (q : rq) : Prop := {
  (* a running request has reqWork set until it is answered *)
  ri_work : running (q_pc q) -> q_work q = true \/ q_resp q = true;
  (* a finished one was answered, saved or cancelled *)
  ri_done : q_pc q = WDone -> q_resp q = true \/ q_saved q = true \/ q_flush q = true;
  (* only ordinary requests that got through the dispatch are handed to the implementation *)
  ri_called : q_called q = true -> q_kind q = KOp /\ ~ unstarted (q_pc q);
  (* only flush requests past their first step have a target *)
  ri_target : q_target q <> None -> kflush q /\ ~ pre (q_pc q);
  (* a reply is packed by the dispatch or by the implementation *)
  ri_packed : hb q = true -> ~ pre (q_pc q) \/ q_called q = true;
  (* a request waits only behind an older one of its tag *)
  ri_wait : q_pc q = WWait -> q_after q <> None }.

Lemma RInv_status : forall q, RInv q ->
  q_resp q = true \/ unstarted (q_pc q) \/ q_work q = true \/ q_saved q = true \/ q_flush q = true.
Proof.
  intros q Iq. pose proof (ri_work q Iq) as A. pose proof (ri_done q Iq) as B. unfold unstarted.
  destruct (q_pc q); simpl in A; auto; try (destruct (A I); auto 6; fail).
  destruct (B eq_refl) as [X | [X | X]]; auto 6.
Qed.

Lemma RInv_packed_started : forall q, RInv q -> hb q = true -> q_pc q <> WWait.
Proof.
  intros q Iq Hh Hw. destruct (ri_packed q Iq Hh) as [X | X].
  - apply X. rewrite Hw. exact I.
  - destruct (ri_called q Iq X) as (_ & Y). apply Y. left. auto.
Qed.

(* unfolds what a case of [qstep] is written with and rewrites with its premise on the program counter *)
Ltac rinv_tac :=
  unfold f1_q, tail_q, lnk, with_flushreq, unstarted, kflush, hb in *; simpl in *;
  try match goal with Hpc : q_pc _ = _ |- _ => rewrite Hpc in *; simpl in * end.

Lemma qstep_status : forall c s l r q q', qstep c s l r q q' -> RInv q ->
  (running (q_pc q') -> q_work q' = true \/ q_resp q' = true) /\
  (q_pc q' = WDone -> q_resp q' = true \/ q_saved q' = true \/ q_flush q' = true).
Proof.
  intros c s l r q q' Q I. pose proof (ri_work q I) as A. pose proof (ri_done q I) as B.
  destruct Q; rinv_tac.
  all: try solve [split; intros; try discriminate; try contradiction; auto; tauto].
  - destruct (f1_pc_cases qt t) as [(E & _) | (E & _)]; rewrite E; split; intros; try discriminate; auto.
  - destruct (f1_pc_cases q r) as [(E & _) | (E & _)]; rewrite E; split; intros; try discriminate; auto.
  - split; [contradiction|]. intros _. destruct (q_resp q); auto.
Qed.

(* past the dispatch the three clauses carry over, unless the step hands the request over or gives it a target *)
Lemma dispatch_post : forall q q', RInv q -> ~ pre (q_pc q') ->
  q_called q' = q_called q -> q_kind q' = q_kind q -> q_target q' = q_target q ->
  (q_called q' = true -> q_kind q' = KOp /\ ~ unstarted (q_pc q')) /\
  (q_target q' <> None -> kflush q' /\ ~ pre (q_pc q')) /\
  (hb q' = true -> ~ pre (q_pc q') \/ q_called q' = true).
Proof.
  intros q q' Iq NP Ec Ek Et. unfold kflush. rewrite Ec, Ek, Et. repeat split; auto.
  - apply (ri_called q Iq H).
  - intros [X | X]; apply NP; rewrite X; exact I.
  - apply (ri_target q Iq H).
Qed.

Lemma qstep_dispatch : forall c s l r q q', GInv s -> getq s r = Some q -> qstep c s l r q q' -> RInv q ->
  (q_called q' = true -> q_kind q' = KOp /\ ~ unstarted (q_pc q')) /\
  (q_target q' <> None -> kflush q' /\ ~ pre (q_pc q')) /\
  (hb q' = true -> ~ pre (q_pc q') \/ q_called q' = true).
Proof.
  intros c s l r q q' G Hq Q Iq.
  pose proof (ri_called q Iq) as A. pose proof (ri_target q Iq) as B. pose proof (ri_packed q Iq) as C.
  destruct Q.
  all: try solve [exact (conj A (conj B C))].
  all: try solve [apply (dispatch_post q); auto; simpl; tauto].
  all: rinv_tac.
  - (* start: not handed over, no target, nothing packed yet *) intuition congruence.
  - (* handed over *) intuition (try discriminate; auto).
  - (* answered by the implementation *) intuition.
  - (* F1: the flusher has its target and leaves the dispatch *)
    destruct (f1_pc_post qt t) as (N1 & N2).
    split; [intro X; destruct (A X); auto | split; [intros _; split; eauto | intros _; left; auto]].
  - destruct (f1_pc_post q r) as (N1 & N2).
    split; [intro X; destruct (A X); auto | split; [intros _; split; eauto | intros _; left; auto]].
  - (* R5: the request started was waiting *)
    destruct (spawn_waiting s f r G (nth_error_In _ _ Hn) Hfp Hnx) as (q0 & Hq0 & Hw).
    assert (q0 = q) by congruence. subst q0. rewrite Hw in *. simpl in *.
    repeat split; intros; exfalso; tauto.
Qed.

Lemma fresh_RInv : forall tag k o, RInv (fresh_rq tag k o).
Proof.
  intros. constructor; unfold fresh_rq, hb; simpl; intros; try discriminate; try congruence.
  - destruct o; contradiction.
  - destruct o; discriminate.
  - destruct o; discriminate.
Qed.

Lemma RInv_step : forall c s l s', reach c s -> (forall r q, getq s r = Some q -> RInv q) -> Step c s l s' ->
  forall r q, getq s' r = Some q -> RInv q.
Proof.
  intros c s l s' Rc B H r q' Hg. pose proof (reach_WF _ _ Rc) as W.
  destruct (step_getq _ _ _ _ W H _ _ Hg) as [(q & Hq & [-> | Q]) | (_ & tag & k & -> & -> & ->)]; eauto.
  - pose proof (B _ _ Hq) as Iq.
    destruct (qstep_status _ _ _ _ _ _ Q Iq) as (X1 & X2).
    destruct (qstep_dispatch _ _ _ _ _ _ (reach_GInv _ _ Rc) Hq Q Iq) as (X3 & X4 & X5).
    constructor; auto.
    intro Hw. destruct (qmove_evol _ _ _ _ _ _ (or_intror Q)) as (_ & _ & -> & _). apply (ri_wait q Iq).
    destruct (qmove_pc _ _ _ _ _ _ (or_intror Q)) as [E | [N | (E & _)]]; [congruence | | congruence].
    elim (pc_next_started _ _ _ N). left. auto.
  - apply fresh_RInv.
Qed.

Lemma reach_RInv : forall c s, reach c s -> forall r q, getq s r = Some q -> RInv q.
Proof.
  intros c. apply (reach_inv c (fun s => forall r q, getq s r = Some q -> RInv q)).
  - intros r q Hq. destruct r; discriminate.
  - apply RInv_step.
Qed.

Lemma pre_no_target : forall c s r q, reach c s -> getq s r = Some q -> pre (q_pc q) -> q_target q = None.
Proof.
  intros c s r q Rc Hq P. destruct (q_target q) eqn:E; auto.
  destruct (ri_target q (reach_RInv c s Rc _ _ Hq)) as (_ & Z); [congruence | contradiction].
Qed.

(* not in the dispatch, and cancelled if not started: the request will not get there *)
Definition safe (q : rq) : Prop := q_pc q <> WProc /\ (unstarted (q_pc q) -> q_flush q = true).
Definition uncalled (q : rq) : Prop := q_called q = false /\ safe q.

Lemma safe_step : forall c s l r q q', GInv s -> getq s r = Some q -> qmove c s l r q q' -> safe q -> safe q'.
Proof.
  intros c s l r q q' G Hq M (A & B). destruct (qmove_evol _ _ _ _ _ _ M) as (_ & _ & _ & Fl & _).
  unfold safe. destruct (qmove_pc_fwd _ _ _ _ _ _ G Hq M) as [-> | [N | (E & ->)]].
  - auto.
  - split; [|intro X; elim (pc_next_started _ _ _ N X)].
    intro X. rewrite X in N. destruct (pc_next_proc _ _ N) as (Y & Z).
    rewrite B in Z; [discriminate | right; auto].
  - split; [discriminate|]. intros _. apply Fl, B. left. auto.
Qed.

Lemma uncalled_step : forall c s l s' t q q', reach c s -> Step c s l s' ->
  getq s t = Some q -> getq s' t = Some q' -> uncalled q -> uncalled q'.
Proof.
  intros c s l s' t q q' Rc H Hq Hq' (A & B).
  pose proof (step_getq_old _ _ _ _ _ _ _ (reach_WF _ _ Rc) H Hq Hq') as M.
  split; [|eapply safe_step; eauto using reach_GInv].
  destruct (qmove_called _ _ _ _ _ _ M) as [C | (_ & C & _)]; [congruence|]. destruct B as (B & _). congruence.
Qed.
