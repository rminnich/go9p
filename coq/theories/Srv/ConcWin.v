(* The winning invocation of Respond is unique; tag groups. *)
From Coq Require Import List Bool PeanoNat Lia.
From V9 Require Import Lib.GoSem Gen.Consts Srv.Conc Srv.ConcInv Srv.ConcStep Srv.ConcWF Srv.ConcMono Srv.ConcCount.
Import ListNotations.

Definition mid (p : fpc) : bool := match p with R1 | RDone => false | _ => true end.

Definition pw (r : nat) (f : frame) : bool := (f_req f =? r) && f_won f.
Definition wcnt (s : st) (r : nat) : nat := length (filter (pw r) (F s)).

(* the winner of request a has come at least as far as n *)
Definition won_past (s : st) (a : nat) (n : nat) : Prop :=
  exists f, In f (F s) /\ f_req f = a /\ f_won f = true /\ n <= ord (f_pc f).

Record GInv (s : st) : Prop := {
  g_w1 : forall f, In f (F s) -> (mid (f_pc f) = true -> f_won f = true) /\ (f_pc f = R1 -> f_won f = false);
  g_w2 : forall r, wcnt s r = b2n (qb s r q_resp);
  g_next : forall f b, In f (F s) -> f_next f = Some b ->
             f_won f = true /\ 4 <= ord (f_pc f) /\ qo s b q_after = Some (f_req f);
  g_prev : forall a qa b, getq s a = Some qa -> q_prev qa = Some b -> qo s b q_after = Some a;
  g_wait : forall b qb a, getq s b = Some qb -> q_after qb = Some a ->
             q_pc qb = WWait \/ won_past s a 5 }.

Lemma GInv_init : GInv init.
Proof.
  constructor; simpl; intros; try contradiction; try (destruct a; discriminate); try (destruct b; discriminate).
  unfold wcnt, qb. simpl. destruct r; reflexivity.
Qed.

Lemma won_unique_in : forall s f1 f2, GInv s -> In f1 (F s) -> In f2 (F s) ->
  f_req f1 = f_req f2 -> f_won f1 = true -> f_won f2 = true -> f1 = f2.
Proof.
  intros s f1 f2 G H1 H2 E W1 W2. pose proof (g_w2 s G (f_req f1)) as A. unfold wcnt in A.
  assert (P1 : pw (f_req f1) f1 = true) by (unfold pw; rewrite Nat.eqb_refl, W1; reflexivity).
  assert (P2 : pw (f_req f1) f2 = true) by (unfold pw; rewrite <- E, Nat.eqb_refl, W2; reflexivity).
  (* the count is at most one: no other winner before or after f1 *)
  destruct (in_split _ _ H1) as (l1 & l2 & El). rewrite El, filter_app, app_length in A. simpl in A.
  rewrite P1 in A. simpl in A.
  assert (Z : length (filter (pw (f_req f1)) l1) = 0 /\ length (filter (pw (f_req f1)) l2) = 0)
    by (destruct (qb s (f_req f1) q_resp); simpl in A; lia).
  rewrite El in H2. apply in_app_or in H2. destruct H2 as [H2 | [H2 | H2]]; auto;
    [rewrite (filter_len_zero _ _ _ (proj1 Z) _ H2) in P2 | rewrite (filter_len_zero _ _ _ (proj2 Z) _ H2) in P2];
    discriminate.
Qed.

Lemma resp_winner : forall s r, GInv s -> qb s r q_resp = true ->
  exists w, In w (F s) /\ f_req w = r /\ f_won w = true.
Proof.
  intros s r G Hr. pose proof (g_w2 s G r) as X. rewrite Hr in X. unfold wcnt in X.
  destruct (filter (pw r) (F s)) as [|w tl] eqn:E; [discriminate|].
  assert (Hw : In w (filter (pw r) (F s))) by (rewrite E; left; auto).
  apply filter_In in Hw. destruct Hw as (Hi & Hp). unfold pw in Hp.
  apply andb_prop in Hp. destruct Hp as (A & B). apply Nat.eqb_eq in A. eauto.
Qed.

(* a frame past R1 is the winner of its request: the winner has come no further than this frame *)
Lemma not_past : forall s f n, GInv s -> In f (F s) -> mid (f_pc f) = true -> ord (f_pc f) < n ->
  ~ won_past s (f_req f) n.
Proof.
  intros s f n G Hi Hm Ho (w & Hw & Er & Ww & Ow).
  assert (w = f) by (eapply won_unique_in; eauto; apply (g_w1 s G f Hi); auto). subst. lia.
Qed.

Lemma won_past_le : forall s a n m, won_past s a n -> m <= n -> won_past s a m.
Proof. intros s a n m (f & A & B & C & D) Hm. exists f. repeat split; auto. lia. Qed.

Lemma won_past_step : forall c s l s' a n, Step c s l s' -> 1 <= n -> won_past s a n -> won_past s' a n.
Proof.
  intros c s l s' a n H Hn (f & Hi & Hr & Hw & Ho).
  destruct (frame_persist_in _ _ _ _ H _ Hi) as (f' & Hi' & E1 & E2 & E3).
  exists f'. repeat split; auto; try congruence; try lia.
  destruct E3 as (E3 & _); [|congruence]. intro X. rewrite X in Ho. simpl in Ho. lia.
Qed.

(* the requests Respond was called on: once called, for ever *)
Lemma responded_on_step : forall c s l s' r, Step c s l s' -> In r (map f_req (F s)) -> In r (map f_req (F s')).
Proof.
  intros c s l s' r H Hi. apply in_map_iff in Hi. destruct Hi as (f & <- & Hi).
  destruct (frame_persist_in _ _ _ _ H _ Hi) as (f' & Hi' & <- & _). apply in_map. auto.
Qed.

(* a winner appears exactly when R1 finds reqResponded clear and sets it *)
Lemma wcnt_step : forall c s l s' r, WF s -> GInv s -> Step c s l s' ->
  wcnt s' r + b2n (qb s r q_resp) = wcnt s r + b2n (qb s' r q_resp).
Proof.
  intros c s l s' r W G H. pose proof (resp_same _ _ _ _ r W H) as Rs. unfold wcnt.
  destruct (fcount_step _ _ _ _ (pw r) H) as [(Nl & ->) | (fi & f & f' & -> & Hn & St & E)].
  { intro x. unfold pw. simpl. apply andb_false_r. }
  { rewrite Rs; auto. intros fi f ->. elim (Nl fi). reflexivity. }
  assert (P : forall g, pw r g = (f_req g =? r) && f_won g) by reflexivity. rewrite !P in E.
  destruct (fstep_adv _ _ _ _ St) as (Er & _ & Keep). rewrite Er in E.
  destruct (f_pc f) eqn:Hfp;
    try (destruct Keep as (Kw & _); [discriminate|]; rewrite Kw in E; rewrite Rs; [lia|];
         intros fi0 f0 X Y Z; inversion X; subst; congruence).
  rewrite (proj2 (g_w1 s G f (nth_error_In _ _ Hn)) Hfp), andb_false_r in E.
  inversion St; try congruence. subst f'. simpl in E.
  pose proof (step_R1 _ _ _ _ _ _ H Hn Hfp Hfq) as Hq'.
  destruct (Nat.eqb_spec (f_req f) r) as [<- | Ne].
  - unfold qb. rewrite Hfq, Hq'. destruct (q_resp q); simpl in *; lia.
  - rewrite Rs; [simpl in E; lia|]. intros fi0 f0 X Y Z. inversion X; subst. congruence.
Qed.

Lemma GInv_step : forall c s l s', reach c s -> GInv s -> Step c s l s' -> GInv s'.
Proof.
  intros c s l s' Rc G H. pose proof (reach_WF _ _ Rc) as W. constructor.
  - intros f' Hi.
    destruct (step_frame _ _ _ _ _ H Hi) as [Ho | [(fi & f & _ & Hn & St) | (x & -> & _)]].
    + apply (g_w1 s G); auto.
    + destruct (g_w1 s G f (nth_error_In _ _ Hn)) as (A & B).
      destruct St; simpl; rewrite Hfp in A; split; intros; try discriminate; auto;
        destruct (q_resp q); try discriminate; reflexivity.
    + simpl. split; intros; [discriminate | reflexivity].
  - intro r. pose proof (g_w2 s G r) as A. pose proof (wcnt_step _ _ _ _ r W G H) as E. lia.
  - intros f' b Hi Hb.
    assert (Old : forall f, In f (F s) -> f_next f = Some b ->
                    f_won f = true /\ 4 <= ord (f_pc f) /\ qo s' b q_after = Some (f_req f)).
    { intros f Hf Hn. destruct (g_next s G f b Hf Hn) as (A & B & C). repeat split; auto.
      eapply qo_after_mono; eauto. }
    destruct (step_frame _ _ _ _ _ H Hi) as [Ho | [(fi & f & _ & Hn & St) | (x & -> & _)]];
      [auto | | discriminate].
    destruct St; simpl in Hb; try discriminate; simpl;
      try solve [destruct (Old f (nth_error_In _ _ Hn) Hb) as (A & B & C); rewrite Hfp in B; simpl in B;
                 repeat split; auto; lia].
    inversion Hb; subst b. repeat split; auto.
    + apply (g_w1 s G f (nth_error_In _ _ Hn)). rewrite Hfp. reflexivity.
    + eapply qo_after_mono; eauto. eapply (g_prev s G); eauto.
  - intros a qa' b Hq Hb.
    destruct (step_getq _ _ _ _ W H _ _ Hq) as [(qa & Hqa & M) | (_ & tag & k & -> & -> & ->)]; [|discriminate].
    destruct (qmove_prev _ _ _ _ _ _ M) as [E | (tag & k & -> & Ho & E)]; rewrite E in Hb.
    + eapply qo_after_mono; eauto. eapply (g_prev s G); eauto.
    + inversion Hb; subst b. unfold qo. rewrite (step_arrive _ _ _ _ _ W H). simpl. auto.
  - intros b qb' a Hq Ha.
    destruct (step_getq _ _ _ _ W H _ _ Hq) as [(qb & Hqb & M) | (_ & tag & k & -> & -> & ->)].
    + assert (Ha0 : q_after qb = Some a) by (destruct (qmove_evol _ _ _ _ _ _ M) as (_ & _ & <- & _); auto).
      destruct (g_wait s G _ _ _ Hqb Ha0) as [X | X]; [|right; eapply won_past_step; eauto].
      destruct (qmove_pc _ _ _ _ _ _ M) as [E | [N | (_ & fi & f & -> & Hn & Hpc & Hnx)]];
        [left; congruence | rewrite X in N; contradiction |].
      (* b is started by the winner of a, which moves on to R6 *)
      right. destruct (g_next s G f b (nth_error_In _ _ Hn) Hnx) as (Wn & _ & Aft).
      rewrite (qo_getq _ _ _ _ Hqb) in Aft. assert (a = f_req f) by congruence. subst a.
      destruct (step_frame_at _ _ _ _ _ _ H Hn) as (f' & Hn' & [(_ & St) | (Ne & _)]); [|congruence].
      exists f'. split; [eapply nth_error_In; eauto|].
      destruct (fstep_adv _ _ _ _ St) as (Er & _ & Keep). destruct Keep as (-> & _); [congruence|].
      inversion St; try congruence. subst f'. simpl. auto.
    + simpl in *. left. rewrite Ha. reflexivity.
Qed.

Lemma reach_GInv : forall c s, reach c s -> GInv s.
Proof. intros c. apply reach_inv; [apply GInv_init | apply GInv_step]. Qed.

Lemma spawn_waiting : forall s f b, GInv s -> In f (F s) -> f_pc f = R5 -> f_next f = Some b ->
  exists qb, getq s b = Some qb /\ q_pc qb = WWait.
Proof.
  intros s f b G Hi Hpc Hb.
  destruct (g_next s G f b Hi Hb) as (Wn & _ & Aft).
  destruct (qo_inv _ _ _ _ Aft) as (qb & Hq & Aft'). exists qb. split; auto.
  destruct (g_wait s G _ _ _ Hq Aft') as [X | X]; auto.
  elim (not_past s f 5 G Hi); auto; rewrite Hpc; simpl; auto.
Qed.
