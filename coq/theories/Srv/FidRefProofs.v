(* Fids are destroyed exactly once: never twice, never while a request holds a counted
   reference, and all of them once the connection is closed and the requests are done. *)
From Coq Require Import ZArith List Bool PeanoNat Lia.
From V9 Require Import Lib.ListFacts Srv.FidRef.
Import ListNotations.

Lemma nth_upd : forall l i f o, nth_error l i = Some o ->
  forall j, nth_error (upd l i f) j = if j =? i then Some (f o) else nth_error l j.
Proof.
  induction l as [|a l IH]; intros i f o H j; [destruct i; discriminate|].
  destruct i as [|i]; destruct j as [|j]; cbn [upd nth_error Nat.eqb] in *; try reflexivity.
  - congruence.
  - exact (IH i f o H j).
Qed.

Lemma length_upd : forall l i f, length (upd l i f) = length l.
Proof.
  induction l as [|a l IH]; intros i f; [reflexivity|].
  destruct i as [|i]; cbn [upd length]; [reflexivity|]. rewrite IH. reflexivity.
Qed.

Lemma In_remove_one : forall l i j,
  (In j (remove_one l i) -> In j l) /\ (In j l -> j <> i -> In j (remove_one l i)).
Proof.
  induction l as [|a l IH]; intros i j; cbn [remove_one In]; [tauto|].
  destruct (Nat.eqb_spec a i) as [->|E]; cbn [In]; destruct (IH i j); intuition congruence.
Qed.

Lemma tlook_spec : forall t k i, NoDup (map fst t) -> (tlook t k = Some i <-> In (k, i) t).
Proof.
  induction t as [|[k' j] t IH]; intros k i Hnd; cbn [tlook In].
  - split; [discriminate|intros []].
  - inversion Hnd as [|x xs Hnotin Hnd']. subst x xs. destruct (Nat.eqb_spec k' k) as [->|Hne].
    + split; [intros [= ->]; left; reflexivity|]. intros [[= ->]|H]; [reflexivity|].
      destruct Hnotin. apply (in_map fst _ _ H).
    + rewrite (IH k i Hnd'). split; [right; assumption|]. intros [[= E _]|H]; [contradiction|assumption].
Qed.

Lemma In_tremove : forall t i k j, In (k, j) (tremove t i) <-> In (k, j) t /\ j <> i.
Proof.
  induction t as [|[k' j'] t IH]; intros i k j; cbn [tremove In]; [tauto|].
  destruct (Nat.eqb_spec j' i) as [->|E]; cbn [In]; rewrite IH; intuition congruence.
Qed.

Lemma NoDup_tremove : forall t i, NoDup (map fst t) -> NoDup (map fst (tremove t i)).
Proof.
  induction t as [|[k' j'] t IH]; intros i Hnd; [constructor|].
  inversion Hnd as [|x xs Hnotin Hnd']. subst x xs.
  cbn [tremove]. destruct (j' =? i); [auto|].
  cbn [map fst]. constructor; [|auto].
  intro Hin. apply Hnotin. apply in_map_iff in Hin. destruct Hin as [[k j] [<- Hin]].
  apply In_tremove in Hin. apply (in_map fst _ _ (proj1 Hin)).
Qed.

Record ObjOK (o : obj) : Prop := {
  ok_rc : o_rc o = Z.of_nat (o_held o + o_owed o + (if o_linked o then 1 else 0));
  ok_dead : o_dead o = true <-> o_rc o = 0%Z;
  ok_destroyed : o_destroyed o + o_pend o = (if o_dead o then 1 else 0);
  ok_creating : o_creating o = true -> o_linked o = false }.

Lemma ObjOK_live : forall o, ObjOK o ->
  0 < o_held o + o_owed o + (if o_linked o then 1 else 0) ->
  o_dead o = false /\ o_destroyed o = 0 /\ o_pend o = 0.
Proof.
  intros o [Hrc Hdead Hdes _] Hpos. destruct (o_dead o).
  - assert (o_rc o = 0%Z) by (apply Hdead; reflexivity). lia.
  - split; [reflexivity|lia].
Qed.

Lemma ObjOK_undestroyed : forall o, ObjOK o ->
  (o_destroyed o = 0 <-> o_dead o = false \/ 0 < o_pend o).
Proof.
  intros o [_ _ Hdes _]. destruct (o_dead o).
  - split; [right; lia | intros [H|H]; [discriminate|lia]].
  - split; [left; reflexivity | lia].
Qed.

(* The table holds the objects that have not been destroyed, each under its number. *)
Record Inv (s : st) : Prop := {
  inv_obj : forall i o, nth_error (objs s) i = Some o -> ObjOK o;
  inv_tab : forall k j, In (k, j) (table s) ->
            exists o, nth_error (objs s) j = Some o /\ o_num o = k /\ o_destroyed o = 0;
  inv_keys : NoDup (map fst (table s));
  inv_live : forall i o, nth_error (objs s) i = Some o -> o_destroyed o = 0 ->
             In (o_num o, i) (table s);
  inv_snap : forall i o, closed s = true -> nth_error (objs s) i = Some o ->
             o_linked o = true -> In i (snap s);
  inv_snap_lt : forall j, In j (snap s) -> j < length (objs s) }.

Lemma Inv_init : Inv init.
Proof.
  constructor; cbn.
  - intros i o H. destruct i; discriminate.
  - intros k j [].
  - constructor.
  - intros i o H. destruct i; discriminate.
  - intros i o H. discriminate.
  - intros j [].
Qed.

(* [d]: the entry of i is removed from the table *)
Lemma Inv_set_obj : forall s i o o' (d : bool),
  Inv s -> nth_error (objs s) i = Some o ->
  o_num o' = o_num o -> ObjOK o' ->
  (if d then o_destroyed o' <> 0 else o_destroyed o' = o_destroyed o) ->
  (closed s = true -> o_linked o' = true -> o_linked o = true) ->
  Inv (set_obj s i o' d).
Proof.
  intros s i o o' d [Iobj Itab Ikeys Ilive Isnap Ilt] Hi Hnum Hok Hd Hl.
  pose proof (nth_upd (objs s) i (fun _ => o') o Hi) as Hnth. cbn beta in Hnth.
  constructor; cbn [set_obj objs table closed snap].
  - intros j x Hj. rewrite Hnth in Hj.
    destruct (j =? i); [injection Hj as <-; assumption | eapply Iobj; eassumption].
  - intros k j Hin. rewrite Hnth. destruct d.
    + apply In_tremove in Hin. destruct Hin as [Hin Hne].
      apply Nat.eqb_neq in Hne. rewrite Hne. apply Itab. assumption.
    + destruct (Itab _ _ Hin) as [x [Hx [Hxn Hx0]]].
      destruct (Nat.eqb_spec j i) as [->|]; [|eauto].
      exists o'. assert (x = o) by congruence. subst x. split; [reflexivity|]. split; congruence.
  - destruct d; [apply NoDup_tremove|]; assumption.
  - intros j x Hj Hx0. rewrite Hnth in Hj.
    destruct (Nat.eqb_spec j i) as [->|Hne].
    + injection Hj as <-. destruct d; [contradiction|]. rewrite Hnum. apply Ilive; congruence.
    + destruct d; [apply In_tremove; split; [|assumption]|]; apply Ilive; assumption.
  - intros j x Hc Hj Hxl. rewrite Hnth in Hj.
    destruct (Nat.eqb_spec j i) as [->|]; [injection Hj as <-|]; eapply Isnap; eauto.
  - intros j Hj. rewrite length_upd. apply Ilt. assumption.
Qed.

Lemma Inv_snap_remove : forall s i o,
  Inv s -> nth_error (objs s) i = Some o -> o_linked o = false ->
  Inv (mkSt (objs s) (table s) (closed s) (remove_one (snap s) i)).
Proof.
  intros s i o [Iobj Itab Ikeys Ilive Isnap Ilt] Hi Hl.
  constructor; cbn [objs table closed snap]; try assumption.
  - intros j x Hc Hj Hxl. apply In_remove_one; [eapply Isnap; eassumption|].
    intros ->. congruence.
  - intros j Hj. apply Ilt. apply In_remove_one in Hj. assumption.
Qed.

Lemma Inv_new : forall s num,
  Inv s -> tlook (table s) num = None ->
  Inv (mkSt (objs s ++ [mkObj num 1%Z true false false 0 1 0 0 0])
            ((num, length (objs s)) :: table s) (closed s) (snap s)).
Proof.
  intros s num [Iobj Itab Ikeys Ilive Isnap Ilt] Hnone.
  constructor; cbn [objs table closed snap].
  - intros j x Hj. rewrite nth_error_snoc in Hj.
    destruct (j =? length (objs s)); [injection Hj as <-|eapply Iobj; eassumption].
    constructor; cbn; [reflexivity|split; discriminate|reflexivity|reflexivity].
  - intros k j [Heq|Hin].
    + injection Heq as <- <-. rewrite nth_error_snoc, Nat.eqb_refl. eexists. repeat split.
    + destruct (Itab _ _ Hin) as [x [Hx Hrest]]. exists x. split; [|assumption].
      rewrite nth_error_app1 by (apply nth_error_Some; congruence). assumption.
  - cbn [map fst]. constructor; [|assumption]. intro Hin.
    apply in_map_iff in Hin. destruct Hin as [[k j] [<- Hin]].
    apply (tlook_spec _ _ _ Ikeys) in Hin. cbn [fst] in Hnone. congruence.
  - intros j x Hj Hx0. rewrite nth_error_snoc in Hj. destruct (Nat.eqb_spec j (length (objs s))) as [->|].
    + injection Hj as <-. left. reflexivity.
    + right. apply Ilive; assumption.
  - intros j x Hc Hj Hxl. rewrite nth_error_snoc in Hj.
    destruct (j =? length (objs s)); [injection Hj as <-; discriminate|eapply Isnap; eassumption].
  - intros j Hj. rewrite app_length. apply Ilt in Hj. lia.
Qed.

Lemma Inv_close : forall s,
  Inv s -> Inv (mkSt (objs s) (table s) true (map snd (table s))).
Proof.
  intros s [Iobj Itab Ikeys Ilive Isnap Ilt].
  constructor; cbn [objs table closed snap]; try assumption.
  - intros j x _ Hj Hxl. apply (in_map snd _ (o_num x, j)). apply Ilive; [assumption|].
    apply (ObjOK_live x (Iobj j x Hj)). rewrite Hxl. lia.
  - intros j Hj. apply in_map_iff in Hj. destruct Hj as [[k j'] [<- Hin]].
    destruct (Itab _ _ Hin) as [x [Hx _]]. apply nth_error_Some. cbn [snd]. congruence.
Qed.

(* The holders of an object change hands, their number stays: a lookup or a refused FidGet
   (neither is counted), an unlink, a retain on a closed connection. *)
Lemma Inv_same : forall s i o cr (l : bool) h w p,
  Inv s -> nth_error (objs s) i = Some o ->
  h + w + (if l then 1 else 0) = o_held o + o_owed o + (if o_linked o then 1 else 0) ->
  (cr = true -> l = false) -> (l = true -> o_linked o = true) ->
  Inv (set_obj s i (mkObj (o_num o) (o_rc o) cr l (o_dead o) (o_destroyed o) h w p (o_pend o)) false).
Proof.
  intros s i o cr l h w p HI Hi Hsum Hcr Hl. destruct (inv_obj s HI i o Hi) as [Hrc Hdead Hdes _].
  eapply Inv_set_obj; try eassumption; try reflexivity; [|auto].
  constructor; cbn; try assumption. lia.
Qed.

(* A live object gets one more holder: FidGet, IncRef, a retain on an open connection. *)
Lemma Inv_inc : forall s i o cr (l : bool) h w p,
  Inv s -> nth_error (objs s) i = Some o -> o_dead o = false ->
  h + w + (if l then 1 else 0) = S (o_held o + o_owed o + (if o_linked o then 1 else 0)) ->
  (cr = true -> l = false) -> (closed s = true -> l = true -> o_linked o = true) ->
  Inv (set_obj s i (mkObj (o_num o) (o_rc o + 1) cr l (o_dead o) (o_destroyed o) h w p (o_pend o)) false).
Proof.
  intros s i o cr l h w p HI Hi Hlive Hsum Hcr Hl. destruct (inv_obj s HI i o Hi) as [Hrc Hdead Hdes _].
  eapply Inv_set_obj; try eassumption; try reflexivity.
  constructor; cbn; try assumption; [lia|]. rewrite Hlive. split; [discriminate|lia].
Qed.

(* DecRef by one of the holders of an object; the others are [h] requests and [w] unlinks *)
Lemma Inv_decref : forall s i o h w,
  Inv s -> nth_error (objs s) i = Some o -> h + w + 1 = o_held o + o_owed o ->
  Inv (set_obj s i (decref (mkObj (o_num o) (o_rc o) (o_creating o) (o_linked o) (o_dead o) (o_destroyed o)
                                  h w (o_ptrs o) (o_pend o))) false).
Proof.
  intros s i o h w HI Hi Hsum. pose proof (inv_obj s HI i o Hi) as Hok.
  destruct (ObjOK_live o Hok) as [Hlive [H0 Hpend]]; [lia|].
  destruct Hok as [Hrc Hdead Hdes Hcr]. unfold decref.
  cbn [o_rc o_num o_creating o_linked o_dead o_destroyed o_held o_owed o_ptrs o_pend].
  destruct (Z.eqb_spec (o_rc o - 1) 0) as [E|E];
    (eapply Inv_set_obj; try eassumption; try reflexivity; [|auto]);
    constructor; cbn; try assumption.
  - destruct (o_linked o); lia.
  - split; reflexivity.
  - lia.
  - destruct (o_linked o); lia.
  - rewrite Hlive. split; [discriminate|lia].
Qed.

Lemma Inv_step : forall s l s', Inv s -> step true s l = Some s' -> Inv s'.
Proof.
  intros s l s' HI Hstep.
  destruct l as [num|num|i|i|i|i|i|i|i| |i]; cbn [step andb orb negb] in Hstep;
    try (destruct (nth_error (objs s) i) as [o|] eqn:Hi; [|discriminate];
         pose proof (inv_obj s HI i o Hi) as Hok).
  - (* LNew *)
    destruct (tlook (table s) num) eqn:Hlook; [discriminate|].
    injection Hstep as <-. apply Inv_new; assumption.
  - (* LLookup *)
    destruct (tlook (table s) num) as [i|]; [|discriminate].
    destruct (nth_error (objs s) i) as [o|] eqn:Hi; [|discriminate]. injection Hstep as <-.
    apply Inv_same; auto. apply (inv_obj s HI i o Hi).
  - (* LGetInc *)
    destruct (o_ptrs o =? 0); [discriminate|].
    destruct (o_creating o || o_dead o) eqn:E; injection Hstep as <-.
    + apply Inv_same; auto. apply Hok.
    + apply orb_false_iff in E. apply Inv_inc; auto; [apply E | apply Hok].
  - (* LRetain *)
    destruct (o_creating o && negb (o_held o =? 0)) eqn:E; [|discriminate].
    apply andb_true_iff in E. destruct E as [Ecr Eheld].
    apply negb_true_iff, Nat.eqb_neq in Eheld.
    pose proof (ok_creating o Hok Ecr) as Hl.
    destruct (closed s) eqn:Ecl; injection Hstep as <-.
    + apply Inv_same; auto; [rewrite Hl; reflexivity | discriminate].
    + apply Inv_inc; auto; [apply (ObjOK_live o Hok); lia | rewrite Hl; lia | congruence].
  - (* LUnlinkReq *)
    destruct (o_held o =? 0); [discriminate|]. rewrite orb_false_r in Hstep.
    destruct (o_linked o) eqn:El; injection Hstep as <-; [|assumption].
    apply Inv_same; auto. rewrite El. lia.
  - (* LUnlinkClose *)
    destruct (existsb (Nat.eqb i) (snap s)); [|discriminate].
    destruct (nth_error (objs s) i) as [o|] eqn:Hi; [|discriminate]. rewrite orb_false_r in Hstep.
    destruct (o_linked o) eqn:El; injection Hstep as <-; [|eapply Inv_snap_remove; eassumption].
    eapply (Inv_snap_remove (set_obj s i _ false)).
    + apply Inv_same; auto. rewrite El. lia.
    + cbn [set_obj objs]. rewrite (nth_upd _ _ _ _ Hi), Nat.eqb_refl. reflexivity.
    + reflexivity.
  - (* LDecOwed *)
    destruct (Nat.eqb_spec (o_owed o) 0) as [|Eowed]; [discriminate|]. injection Hstep as <-.
    apply Inv_decref; [assumption..|lia].
  - (* LDecHeld *)
    destruct (Nat.eqb_spec (o_held o) 0) as [|Eheld]; [discriminate|]. injection Hstep as <-.
    apply Inv_decref; [assumption..|lia].
  - (* LDestroy: the object is dead and still has its table entry, which goes now *)
    destruct (Nat.eqb_spec (o_pend o) 0) as [|Epend]; [discriminate|].
    destruct Hok as [Hrc Hdead Hdes Hcr].
    assert (H0 : o_destroyed o = 0) by (destruct (o_dead o); lia).
    rewrite (proj2 (tlook_spec _ _ _ (inv_keys s HI)) (inv_live s HI i o Hi H0)), Nat.eqb_refl in Hstep.
    injection Hstep as <-.
    eapply Inv_set_obj; try eassumption; try reflexivity; [|discriminate|auto].
    constructor; cbn; try assumption. destruct (o_dead o); lia.
  - (* LClose *)
    destruct (closed s); [discriminate|]. injection Hstep as <-.
    apply Inv_close. assumption.
  - (* LIncHeld *)
    destruct (Nat.eqb_spec (o_held o) 0) as [|Eheld]; [discriminate|]. injection Hstep as <-.
    apply Inv_inc; auto; [apply (ObjOK_live o Hok); lia | apply Hok].
Qed.

Lemma Inv_run : forall ls s s', Inv s -> run true s ls = Some s' -> Inv s'.
Proof.
  induction ls as [|l ls IH]; intros s s' HI Hrun; cbn [run] in Hrun.
  - inversion Hrun. subst s'. assumption.
  - destruct (step true s l) as [s1|] eqn:Hstep; [|discriminate].
    eapply IH; [|eassumption]. eapply Inv_step; eassumption.
Qed.

Lemma Inv_reach : forall s, reach true s -> Inv s.
Proof.
  intros s [ls Hrun]. eapply Inv_run; [apply Inv_init|eassumption].
Qed.

Lemma reach_ObjOK : forall s i o, reach true s -> nth_error (objs s) i = Some o -> ObjOK o.
Proof. intros s i o Hr Hi. exact (inv_obj s (Inv_reach s Hr) i o Hi). Qed.

(* FidDestroy is called at most once per fid object, in every reachable state,
   counting the calls that are still to come *)
Theorem destroyed_or_pending_at_most_once : forall s i o,
  reach true s -> nth_error (objs s) i = Some o -> o_destroyed o + o_pend o <= 1.
Proof.
  intros s i o Hr Hi. rewrite (ok_destroyed o (reach_ObjOK s i o Hr Hi)). destruct (o_dead o); lia.
Qed.

Theorem destroyed_at_most_once : forall s i o,
  reach true s -> nth_error (objs s) i = Some o -> o_destroyed o <= 1.
Proof.
  intros s i o Hr Hi. pose proof (destroyed_or_pending_at_most_once s i o Hr Hi). lia.
Qed.

(* a request holding a counted reference (or an unlink about to DecRef) never holds a destroyed fid *)
Theorem no_reference_to_destroyed_fid : forall s i o,
  reach true s -> nth_error (objs s) i = Some o -> 0 < o_held o + o_owed o ->
  o_dead o = false /\ o_destroyed o = 0 /\ o_pend o = 0.
Proof.
  intros s i o Hr Hi Hpos. apply ObjOK_live; [exact (reach_ObjOK s i o Hr Hi) | lia].
Qed.

(* the reference count is exactly the number of holders: requests, pending unlinks, the table *)
Theorem refcount_is_number_of_holders : forall s i o,
  reach true s -> nth_error (objs s) i = Some o ->
  o_rc o = Z.of_nat (o_held o + o_owed o + (if o_linked o then 1 else 0)).
Proof. intros s i o Hr Hi. exact (ok_rc o (reach_ObjOK s i o Hr Hi)). Qed.

(* the table maps a number to at most one object, and exactly to the objects not destroyed *)
Theorem table_is_the_live_fids : forall s i o,
  reach true s -> nth_error (objs s) i = Some o ->
  (tlook (table s) (o_num o) = Some i <-> (o_dead o = false \/ 0 < o_pend o)).
Proof.
  intros s i o Hr Hi. apply Inv_reach in Hr.
  rewrite (tlook_spec _ _ _ (inv_keys s Hr)), <- (ObjOK_undestroyed o (inv_obj s Hr i o Hi)). split.
  - intro Hin. destruct (inv_tab s Hr _ _ Hin) as [x [Hx [_ Hx0]]]. congruence.
  - apply inv_live; assumption.
Qed.

(* once the connection is closed, the close loop has run and every request has returned:
   every fid ever created on the connection has been destroyed exactly once, the table is empty *)
Theorem quiescent_all_destroyed_once : forall s,
  reach true s -> quiescent s ->
  (forall o, In o (objs s) -> o_destroyed o = 1) /\ table s = [].
Proof.
  intros s Hr [Hcl [Hsnap Hq]]. apply Inv_reach in Hr.
  (* nobody holds the object, the close loop has unlinked it: its count is 0, it is dead *)
  assert (Hall : forall i o, nth_error (objs s) i = Some o -> o_destroyed o = 1).
  { intros i o Hi. destruct (Hq o (nth_error_In _ _ Hi)) as [Hh [Ho [_ [_ Hp]]]].
    assert (Hl : o_linked o = false).
    { destruct (o_linked o) eqn:El; [|reflexivity].
      pose proof (inv_snap s Hr i o Hcl Hi El) as Hin. rewrite Hsnap in Hin. destruct Hin. }
    destruct (inv_obj s Hr i o Hi) as [Hrc Hdead Hdes _].
    rewrite (proj2 Hdead), Hp in Hdes; [lia|]. rewrite Hrc, Hh, Ho, Hl. reflexivity. }
  split.
  - intros o Hin. apply In_nth_error in Hin. destruct Hin as [i Hi]. exact (Hall i o Hi).
  - destruct (table s) as [|[k j] t] eqn:Et; [reflexivity|].
    destruct (inv_tab s Hr k j) as [x [Hx [_ Hx0]]]; [rewrite Et; left; reflexivity|].
    rewrite (Hall j x Hx) in Hx0. discriminate.
Qed.

(* the close loop is never stuck *)
Theorem close_loop_progress : forall s i,
  reach true s -> In i (snap s) -> step true s (LUnlinkClose i) <> None.
Proof.
  intros s i Hr Hin. apply Inv_reach in Hr.
  assert (Hmem : existsb (Nat.eqb i) (snap s) = true).
  { apply existsb_exists. exists i. split; [assumption|apply Nat.eqb_refl]. }
  cbn [step]. rewrite Hmem.
  pose proof (inv_snap_lt s Hr i Hin) as Hlt. apply nth_error_Some in Hlt.
  destruct (nth_error (objs s) i) as [o|]; [|congruence].
  destruct (o_linked o || negb true); discriminate.
Qed.

(* a pending destroy can always be performed *)
Theorem destroy_progress : forall s i o,
  reach true s -> nth_error (objs s) i = Some o -> 0 < o_pend o ->
  step true s (LDestroy i) <> None.
Proof.
  intros s i o _ Hi Hp. cbn [step]. rewrite Hi.
  destruct (o_pend o =? 0) eqn:E; [apply Nat.eqb_eq in E; lia|discriminate].
Qed.

(* [fixed = false] is the reference counting without the [linked] flag and with a FidGet that
   accepts dead fids (FidRef.v).  There a fid can be destroyed twice when the connection closes,
   can be left undestroyed when everything has finished, and can be destroyed, revived by a FidGet
   that had looked it up before, and destroyed a second time while the connection is open. *)
Theorem old_double_destroy_at_disconnect : exists ls s o,
  run false init ls = Some s /\ In o (objs s) /\ o_destroyed o = 2.
Proof.
  exists [LNew 1; LRetain 0; LDecHeld 0; LLookup 1; LGetInc 0; LNew 2; LClose;
          LUnlinkClose 0; LDecOwed 0; LUnlinkClose 1; LDecOwed 1; LDestroy 1; LRetain 1;
          LDecHeld 0; LDestroy 0; LDecHeld 1; LDestroy 1].
  eexists. eexists. split; [vm_compute; reflexivity|].
  split; [right; left; reflexivity|reflexivity].
Qed.

Theorem old_leak_after_disconnect : exists ls s o,
  run false init ls = Some s /\ quiescent s /\ In o (objs s) /\ o_destroyed o = 0.
Proof.
  exists [LNew 1; LRetain 0; LDecHeld 0; LLookup 1; LGetInc 0; LClose;
          LUnlinkClose 0; LDecOwed 0; LNew 2; LRetain 1; LDecHeld 0; LDestroy 0; LDecHeld 1].
  eexists. eexists. split; [vm_compute; reflexivity|].
  split; [|split; [right; left; reflexivity|reflexivity]].
  split; [reflexivity|]. split; [reflexivity|].
  intros o [<-|[<-|[]]]; repeat split; reflexivity.
Qed.

Theorem old_resurrection : exists ls s o,
  run false init ls = Some s /\ closed s = false /\ In o (objs s) /\ o_destroyed o = 2.
Proof.
  exists [LNew 1; LRetain 0; LDecHeld 0; LLookup 1; LGetInc 0; LLookup 1;
          LUnlinkReq 0; LDecOwed 0; LDecHeld 0; LDestroy 0; LGetInc 0; LDecHeld 0; LDestroy 0].
  eexists. eexists. split; [vm_compute; reflexivity|].
  split; [reflexivity|]. split; [left; reflexivity|reflexivity].
Qed.

(* non-vacuity: a reachable quiescent state of the fixed code with a fid created before, one
   during and one after the disconnect *)
Example quiescent_reachable : exists ls s,
  run true init ls = Some s /\ quiescent s /\ length (objs s) = 3.
Proof.
  exists [LNew 1; LRetain 0; LDecHeld 0; LNew 2; LClose; LRetain 1;
          LUnlinkClose 0; LDecOwed 0; LDestroy 0; LUnlinkClose 1; LDecHeld 1; LDestroy 1;
          LNew 3; LRetain 2; LDecHeld 2; LDestroy 2].
  eexists. split; [vm_compute; reflexivity|].
  split; [|reflexivity].
  split; [reflexivity|]. split; [reflexivity|].
  intros o [<-|[<-|[<-|[]]]]; repeat split; reflexivity.
Qed.

Print Assumptions destroyed_at_most_once.
Print Assumptions destroyed_or_pending_at_most_once.
Print Assumptions no_reference_to_destroyed_fid.
Print Assumptions refcount_is_number_of_holders.
Print Assumptions table_is_the_live_fids.
Print Assumptions quiescent_all_destroyed_once.
Print Assumptions close_loop_progress.
Print Assumptions destroy_progress.
Print Assumptions old_double_destroy_at_disconnect.
Print Assumptions old_leak_after_disconnect.
Print Assumptions old_resurrection.
Print Assumptions quiescent_reachable.
