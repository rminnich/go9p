(* Content invariant: whatever is sent was packed for that request. *)
From Coq Require Import NArith List PeanoNat.
From V9 Require Import Lib.GoSem Gen.Consts Srv.Conc Srv.ConcInv Srv.ConcStep Srv.ConcWF Srv.ConcMono Srv.ConcCount.
Import ListNotations.

Definition hb (q : rq) : bool := match q_buf q with Some _ => true | None => false end.

Lemma qb_hb_mono : forall c s l s' r, WF s -> Step c s l s' -> qb s r hb = true -> qb s' r hb = true.
Proof.
  intros c s l s' r W H. unfold qb. destruct (getq s r) eqn:Hq; [|discriminate].
  destruct (step_evol _ _ _ _ W H _ _ Hq) as (q' & -> & E). unfold evol in E.
  unfold hb. destruct (q_buf r0); [|discriminate]. intros _.
  destruct (q_buf q'); auto. exfalso. apply E; auto. discriminate.
Qed.

Definition rq_ok (s : st) (q : rq) : Prop :=
  (forall x, q_buf q = Some x -> In x (q_packs q)) /\
  (forall x, q_flushreq q = Some x -> qb s x hb = true) /\
  (forall x, q_flushnext q = Some x -> qb s x hb = true) /\
  (forall t, q_pc q = WF3 t false -> qb s t q_flush = true).

Definition fr_ok (s : st) (f : frame) : Prop :=
  (qb s (f_req f) q_flush = true \/ qb s (f_req f) hb = true) /\
  (f_pc f <> R1 -> f_sflush f = false -> qb s (f_req f) hb = true) /\
  (forall x, f_cur f = Some x -> qb s x hb = true).

Definition wire_ok (s : st) (e : nat * N * option N) : Prop :=
  exists q, getq s (fst (fst e)) = Some q /\ q_tag q = snd (fst e) /\
            exists x, snd e = Some x /\ In x (q_packs q).

Record BInv (s : st) : Prop := {
  b_rq : forall r q, getq s r = Some q -> rq_ok s q;
  b_fr : forall f, In f (F s) -> fr_ok s f;
  b_out : forall r, In r (outq s) -> qb s r hb = true;
  b_wire : forall e, In e (wire s) -> wire_ok s e }.

Lemma BInv_init : BInv init.
Proof. constructor; simpl; intros; try contradiction. destruct r; discriminate. Qed.

Lemma rq_ok_mono : forall c s l s' q, WF s -> Step c s l s' -> rq_ok s q -> rq_ok s' q.
Proof.
  intros c s l s' q W H (A & B & C & D). repeat split; auto; intros.
  - eapply qb_hb_mono; eauto.
  - eapply qb_hb_mono; eauto.
  - eapply qb_mono; eauto.
Qed.

Lemma fr_ok_mono : forall c s l s' f, WF s -> Step c s l s' -> fr_ok s f -> fr_ok s' f.
Proof.
  intros c s l s' f W H (A & B & C). repeat split.
  - destruct A; [left; eapply qb_mono; eauto | right; eapply qb_hb_mono; eauto].
  - intros. eapply qb_hb_mono; eauto.
  - intros. eapply qb_hb_mono; eauto.
Qed.

Lemma wire_ok_mono : forall c s l s' e, WF s -> Step c s l s' -> wire_ok s e -> wire_ok s' e.
Proof.
  intros c s l s' e W H (q & Hq & T & x & E & I).
  destruct (step_evol _ _ _ _ W H _ _ Hq) as (q' & Hq' & Ev). unfold evol in Ev.
  exists q'. split; auto. split; [intuition congruence|]. exists x. split; auto. apply Ev. auto.
Qed.

Lemma rq_ok_pc : forall s q p, rq_ok s q -> (forall t, p = WF3 t false -> qb s t q_flush = true) ->
  rq_ok s (with_pc q p).
Proof. intros s q p (A & B & C & D) Hp. repeat split; auto. Qed.

Lemma rq_ok_buf : forall s q v, rq_ok s q -> rq_ok s (with_buf q v).
Proof.
  intros s q v (A & B & C & D). repeat split; auto. simpl. intros x Hx. inversion Hx. auto.
Qed.

Lemma rq_ok_flushreq : forall s q x, rq_ok s q -> qb s x hb = true -> rq_ok s (with_flushreq q (Some x)).
Proof.
  intros s q x (A & B & C & D) Hx. repeat split; auto. simpl. intros y Hy. inversion Hy; subst. auto.
Qed.

Lemma rq_ok_f1 : forall s q qt t, rq_ok s q -> rq_ok s qt -> rq_ok s (f1_q q qt t).
Proof.
  intros s q qt t (A & B & C & D) (_ & Bt & _). repeat split; auto; simpl.
  - intros x Hx. inversion Hx. auto.
  - intros t0 X. destruct (f1_pc_not qt t) as (_ & _ & _ & _ & _ & Y & _). elim (Y _ _ X).
Qed.

Lemma actor_packs : forall c s l s' r q, Step c s l s' -> getq s r = Some q ->
  match l with
  | LReject x _ | LAnswer x _ | LF1 x | LV1 x => x = r -> qb s' r hb = true
  | LReqFlush x => x = r -> qb s' r q_flush = true
  | _ => True
  end.
Proof.
  intros c s l s' r q H Hq.
  destruct l; auto; intros ->; destruct (step_actor _ _ _ _ _ _ H eq_refl Hq) as (q' & Hq' & Q);
    unfold qb; rewrite Hq'; inversion Q; subst; try reflexivity; congruence.
Qed.

Lemma qstep_rq_ok : forall c s l s' r q q', WF s -> (forall r q, getq s r = Some q -> rq_ok s q) ->
  Step c s l s' -> getq s r = Some q -> qstep c s l r q q' -> rq_ok s' q'.
Proof.
  intros c s l s' r q q' W BR H Hq Q.
  assert (M := fun r q Hq => rq_ok_mono c s l s' q W H (BR r q Hq)).
  pose proof (M _ _ Hq) as Ok.
  destruct Q.
  all: try solve [exact Ok].
  all: try solve [apply rq_ok_pc; [exact Ok | intros; discriminate]].
  all: try solve [apply rq_ok_pc; [apply rq_ok_buf; exact Ok | intros; discriminate]].
  - apply rq_ok_buf. exact Ok.
  - apply rq_ok_f1; eauto.
  - apply rq_ok_flushreq; auto. apply (actor_packs _ _ _ _ _ _ H Ha). reflexivity.
  - apply rq_ok_flushreq; [apply rq_ok_f1; auto|]. apply (actor_packs _ _ _ _ _ _ H Hq). reflexivity.
  - apply rq_ok_pc; auto. intros t0 X. inversion X; subst.
    destruct (step_F2_flags _ _ _ _ _ _ _ H Hq Hpc Hqt H2) as (qt' & Hqt' & E).
    unfold qb. rewrite Hqt'. destruct E; subst; reflexivity.
  - apply rq_ok_pc; [exact Ok|]. intros t0 X. inversion X; subst.
    destruct (step_F2_flags _ _ _ _ _ _ _ H Hq Hpc Hq Hw) as (qt' & Hqt' & E).
    unfold qb. rewrite Hqt'. destruct E; subst; reflexivity.
  - destruct (M _ _ Ha) as (_ & Bq & _). destruct (M _ _ Hqn) as (_ & Bn & _). destruct Ok as (A & B & C & D).
    unfold relink. repeat split; auto; simpl; intro x.
    + destruct (nx =? r); auto. destruct (q_flushreq qn); auto.
    + destruct (q_flushreq q); auto. destruct (q_flushreq qn); auto. destruct (_ =? r); auto.
Qed.

Lemma BInv_step_rq : forall c s l s', WF s -> BInv s -> Step c s l s' ->
  forall r q, getq s' r = Some q -> rq_ok s' q.
Proof.
  intros c s l s' W B H r q' Hg.
  destruct (step_getq _ _ _ _ W H _ _ Hg) as [(q & Hq & [-> | Q]) | (_ & tag & k & -> & -> & ->)].
  - eapply rq_ok_mono; eauto. apply (b_rq s B _ _ Hq).
  - eapply qstep_rq_ok; eauto. apply (b_rq s B).
  - unfold rq_ok, fresh_rq; simpl; repeat split; intros; try discriminate.
    destruct (alookup (reqs s) tag); discriminate.
Qed.

Lemma fr_ok_upd : forall s f f',
  fr_ok s f -> f_req f' = f_req f -> f_pc f <> R1 -> f_sflush f' = f_sflush f ->
  (forall x, f_cur f' = Some x -> qb s x hb = true) -> fr_ok s f'.
Proof.
  intros s f f' (A & B & C) E1 E2 E3 E4. unfold fr_ok. rewrite E1, E3. repeat split; auto.
Qed.

Lemma fstep_fr_ok : forall c s l s' f f', WF s -> BInv s -> Step c s l s' -> In f (F s) -> fstep c s f f' ->
  fr_ok s' f'.
Proof.
  intros c s l s' f f' W B H Hi St.
  assert (Mh := fun r => qb_hb_mono c s l s' r W H).
  pose proof (fr_ok_mono _ _ _ _ _ W H (b_fr s B f Hi)) as X.
  assert (Xc : forall x, f_cur f = Some x -> qb s' x hb = true) by apply X.
  destruct St; try (apply (fr_ok_upd s' f); [exact X | reflexivity | congruence | reflexivity | simpl]);
    try exact Xc; try (intros; discriminate).
  - destruct X as (X1 & X2 & X3). repeat split; simpl; auto; try discriminate.
    intros _ E. destruct (b_fr s B f Hi) as ([A | A] & _); auto.
    rewrite (qb_getq _ _ _ _ Hfq) in A. congruence.
  - intros x E. apply Mh. destruct (b_rq s B _ _ Hfq) as (_ & Bq & _). auto.
  - intros y E. inversion E; subst. auto.
  - intros y E. apply Mh. destruct (b_rq s B _ _ Hqx) as (_ & _ & Bq & _). auto.
Qed.

Lemma starts_fr_ok : forall c s l s' x, WF s -> BInv s -> Step c s l s' -> starts c s l x ->
  fr_ok s' (new_frame x).
Proof.
  intros c s l s' x W B H St.
  assert (X : qb s' x q_flush = true \/ qb s' x hb = true).
  { destruct St.
    all: try solve [right; apply (actor_packs _ _ _ _ _ _ H Ha); reflexivity].
    - left. apply (qb_mono _ _ _ _ r W H). unfold qb. rewrite Ha. auto.
    - left. apply (qb_mono _ _ _ _ t W H). destruct (b_rq s B _ _ Ha) as (_ & _ & _ & X). auto.
    - left. apply (actor_packs _ _ _ _ _ _ H Ha). reflexivity.
    - right. apply (qb_hb_mono _ _ _ _ x W H).
      destruct (b_fr s B f (nth_error_In _ _ Hn)) as (_ & _ & X). auto. }
  unfold fr_ok. simpl. repeat split; auto; intros; try discriminate; congruence.
Qed.

Lemma BInv_step : forall c s l s', reach c s -> BInv s -> Step c s l s' -> BInv s'.
Proof.
  intros c s l s' Rc B H. pose proof (reach_WF _ _ Rc) as W. constructor.
  - eapply BInv_step_rq; eauto.
  - intros f' Hi. destruct (step_frame _ _ _ _ _ H Hi) as [Ho | [(fi & f & _ & Hn & St) | (x & -> & St)]].
    + eapply fr_ok_mono; eauto. apply (b_fr s B). auto.
    + eapply fstep_fr_ok; eauto using nth_error_In.
    + eapply starts_fr_ok; eauto.
  - intros r Hi. destruct (outq_step _ _ _ _ _ H Hi) as [Ho | (fi & f & Hn & <- & Hpc & Hsf)].
    + eapply qb_hb_mono; eauto. apply (b_out s B). auto.
    + eapply qb_hb_mono; eauto. destruct (b_fr s B f (nth_error_In _ _ Hn)) as (_ & X & _). apply X; auto. congruence.
  - intros e Hi. destruct (wire_step _ _ _ _ _ H Hi) as [Ho | (r & q & Ho & Hq & ->)].
    + eapply wire_ok_mono; eauto. apply (b_wire s B). auto.
    + eapply wire_ok_mono; eauto. exists q. simpl. repeat split; auto.
      pose proof (b_out s B r Ho) as X. unfold qb, hb in X. rewrite Hq in X.
      destruct (q_buf q) eqn:E; [|discriminate]. exists n. split; auto.
      apply (b_rq s B r q Hq). auto.
Qed.

Lemma reach_BInv : forall c s, reach c s -> BInv s.
Proof. intros c. apply reach_inv; [apply BInv_init | apply BInv_step]. Qed.
