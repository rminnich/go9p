(* What Srv/SeqProofs.v and Srv/CrashProofs.v stand on: the tables as association lists; the fid-table
   operations seen from one entry ([fget_incref], [fget_decref], ...); [post] and [seq_step] split into
   table and events ([post_eq], [seq_step_eq], [seq_step_elim]); the tactics that walk the paths of
   [process_pre]; and [step_key], what one request does to one fid. *)
From Coq Require Import NArith ZArith List Bool PeanoNat Lia.
From V9 Require Import Lib.GoSem Lib.Bytes Gen.Consts Codec.Msg Srv.Seq Srv.SeqSpec.
Import ListNotations.
Local Open Scope N_scope.

Lemma fget_fset : forall t k r k', fget (fset t k r) k' = if k =? k' then Some r else fget t k'.
Proof.
  induction t as [|[k0 r0] t IH]; intros; simpl.
  - reflexivity.
  - destruct (k0 =? k) eqn:E; simpl.
    + apply N.eqb_eq in E; subst. destruct (k =? k'); reflexivity.
    + rewrite IH. destruct (k0 =? k') eqn:E1; [|reflexivity].
      apply N.eqb_eq in E1; subst. rewrite N.eqb_sym, E. reflexivity.
Qed.

Lemma fget_fdel : forall t k k', fget (fdel t k) k' = if k =? k' then None else fget t k'.
Proof.
  induction t as [|[k0 r0] t IH]; intros; simpl.
  - destruct (k =? k'); reflexivity.
  - destruct (k0 =? k) eqn:E; simpl.
    + apply N.eqb_eq in E; subst. rewrite IH. destruct (k =? k'); reflexivity.
    + rewrite IH. destruct (k0 =? k') eqn:E1; [|reflexivity].
      apply N.eqb_eq in E1; subst. rewrite N.eqb_sym, E. reflexivity.
Qed.

Lemma keys_fset : forall t k r x, In x (map fst (fset t k r)) -> x = k \/ In x (map fst t).
Proof.
  induction t as [|[k0 r0] t IH]; intros k r x; simpl.
  - intros [H|[]]; auto.
  - destruct (k0 =? k) eqn:E; simpl.
    + apply N.eqb_eq in E; subst. tauto.
    + intros [H|H]; auto. apply IH in H. tauto.
Qed.

Lemma nodup_fset : forall t k r, NoDup (map fst t) -> NoDup (map fst (fset t k r)).
Proof.
  induction t as [|[k0 r0] t IH]; intros k r H; simpl.
  - constructor; [intros []|constructor].
  - inversion H; subst. destruct (k0 =? k) eqn:E; simpl.
    + apply N.eqb_eq in E; subst. constructor; auto.
    + constructor; auto. intro HI. apply keys_fset in HI. destruct HI as [HI|HI].
      * subst. rewrite N.eqb_refl in E. discriminate.
      * simpl in *. auto.
Qed.

Lemma keys_fdel : forall t k, map fst (fdel t k) = filter (fun x => negb (x =? k)) (map fst t).
Proof.
  induction t as [|[k0 r0] t IH]; intros k; simpl; auto.
  destruct (k0 =? k); simpl; rewrite IH; reflexivity.
Qed.

Lemma nodup_fdel : forall t k, NoDup (map fst t) -> NoDup (map fst (fdel t k)).
Proof. intros. rewrite keys_fdel. apply NoDup_filter. assumption. Qed.

Lemma fget_in : forall t k r, fget t k = Some r -> In (k, r) t.
Proof.
  induction t as [|[k0 r0] t IH]; simpl; intros k r H; [discriminate|].
  destruct (k0 =? k) eqn:E.
  - apply N.eqb_eq in E. inversion H; subst. auto.
  - right; auto.
Qed.

Lemma in_fget : forall t k r, NoDup (map fst t) -> In (k, r) t -> fget t k = Some r.
Proof.
  induction t as [|[k0 r0] t IH]; simpl; intros k r ND H; [tauto|].
  inversion ND; subst. destruct H as [H|H].
  - inversion H; subst. rewrite N.eqb_refl. reflexivity.
  - destruct (k0 =? k) eqn:E.
    + apply N.eqb_eq in E; subst. exfalso. apply H2. change k with (fst (k, r)). apply in_map; auto.
    + auto.
Qed.

Lemma FInv_ext : forall ft,
  FInv ft <-> (NoDup (map fst ft) /\ (forall k r, fget ft k = Some r -> f_ref r = 1%Z) /\
               fget ft c_NOFID = None).
Proof.
  intros ft; unfold FInv; split; intros [ND [H HN]]; split; auto; split; auto.
  - intros k r Hg. apply fget_in in Hg. rewrite Forall_forall in H. apply (H _ Hg).
  - rewrite Forall_forall. intros [k r] HI. simpl. apply (H k). apply in_fget; auto.
Qed.

Lemma vget_map : forall (g : fidrec -> N) ft k,
  vget (map (fun kr => (fst kr, g (snd kr))) ft) k = option_map g (fget ft k).
Proof.
  induction ft as [|[k0 r0] t IH]; intros; simpl; auto.
  destruct (k0 =? k); auto.
Qed.

Lemma vget_abs : forall ft k, vget (abs ft) k = option_map f_user (fget ft k).
Proof. exact (vget_map f_user). Qed.
Lemma vget_oabs : forall ft k, vget (oabs ft) k = option_map ocode (fget ft k).
Proof. exact (vget_map ocode). Qed.
Lemma vget_tabs : forall ft k, vget (tabs ft) k = option_map f_type (fget ft k).
Proof. exact (vget_map f_type). Qed.

Lemma vget_vdel : forall v k k', vget (vdel v k) k' = if k =? k' then None else vget v k'.
Proof.
  induction v as [|[k0 u0] v IH]; intros; simpl.
  - destruct (k =? k'); reflexivity.
  - destruct (k0 =? k) eqn:E; simpl.
    + apply N.eqb_eq in E; subst. rewrite IH. destruct (k =? k'); reflexivity.
    + rewrite IH. destruct (k0 =? k') eqn:E1; [|reflexivity].
      apply N.eqb_eq in E1; subst. rewrite N.eqb_sym, E. reflexivity.
Qed.

Lemma vget_vset : forall v k u k', vget (vset v k u) k' = if k =? k' then Some u else vget v k'.
Proof.
  intros. unfold vset. simpl. rewrite vget_vdel. destruct (k =? k'); reflexivity.
Qed.

(* The table operations seen from one entry: [ince] and [dece] are what IncRef and DecRef do to the entry
   of their key, [dcnt] is the number of FidDestroy calls of that DecRef. *)
Definition setref (n : Z) (r : fidrec) : fidrec :=
  mkFid n (f_opened r) (f_omode r) (f_type r) (f_user r) (f_diroff r).

Definition ince (e : option fidrec) : option fidrec :=
  match e with Some r => Some (setref (f_ref r + 1) r) | None => None end.

Definition dece (e : option fidrec) : option fidrec :=
  match e with
  | Some r => if (negb (f_ref r - 1 =? 0)%Z) then Some (setref (f_ref r - 1) r) else None
  | None => None
  end.

Definition dcnt (e : option fidrec) : nat :=
  match e with
  | Some r => if (negb (f_ref r - 1 =? 0)%Z) then 0%nat else 1%nat
  | None => 0%nat
  end.

Lemma fget_upd_fid : forall t k f k',
  fget (upd_fid t k f) k' = (if k =? k' then option_map f else id) (fget t k').
Proof.
  intros. unfold upd_fid. destruct (fget t k) eqn:E; [rewrite fget_fset|];
  destruct (k =? k') eqn:E1; auto; apply N.eqb_eq in E1; subst; rewrite E; reflexivity.
Qed.

Lemma fget_incref : forall t k k',
  fget (incref t k) k' = (if k =? k' then ince else id) (fget t k').
Proof. intros. exact (fget_upd_fid t k (fun r => setref (f_ref r + 1) r) k'). Qed.

Lemma fget_decref : forall t k k',
  fget (fst (decref t k)) k' = (if k =? k' then dece else id) (fget t k').
Proof.
  intros. unfold decref. destruct (fget t k) eqn:E;
  [destruct (negb (f_ref f - 1 =? 0)%Z) eqn:EZ; cbn [fst]; [rewrite fget_fset | rewrite fget_fdel]|cbn [fst]];
  destruct (k =? k') eqn:E1; auto; apply N.eqb_eq in E1; subst; rewrite E; cbn; rewrite ?EZ; reflexivity.
Qed.

Lemma count_destroy_app : forall k a b,
  count_destroy k (a ++ b) = (count_destroy k a + count_destroy k b)%nat.
Proof. intros. unfold count_destroy. rewrite filter_app, app_length. reflexivity. Qed.

Lemma count_destroy_decref : forall t k k',
  count_destroy k' (snd (decref t k)) = if k =? k' then dcnt (fget t k') else 0%nat.
Proof.
  intros. unfold decref, count_destroy. destruct (fget t k) eqn:E;
  [destruct (negb (f_ref f - 1 =? 0)%Z) eqn:EZ|]; cbn;
  destruct (k =? k') eqn:E1; auto; apply N.eqb_eq in E1; subst; rewrite E; cbn; rewrite ?EZ; reflexivity.
Qed.

Lemma nodup_upd_fid : forall t k f, NoDup (map fst t) -> NoDup (map fst (upd_fid t k f)).
Proof. intros. unfold upd_fid. destruct (fget t k); auto using nodup_fset. Qed.

Lemma nodup_incref : forall t k, NoDup (map fst t) -> NoDup (map fst (incref t k)).
Proof. intros t k. exact (nodup_upd_fid t k _). Qed.

Lemma nodup_decref : forall t k, NoDup (map fst t) -> NoDup (map fst (fst (decref t k))).
Proof.
  intros. unfold decref. destruct (fget t k); auto.
  destruct (negb (f_ref f - 1 =? 0)%Z); simpl; auto using nodup_fset, nodup_fdel.
Qed.

Lemma nodup_fidnew : forall t k t', NoDup (map fst t) -> fidnew t k = Some t' -> NoDup (map fst t').
Proof.
  intros t k t' H. unfold fidnew. destruct (fget t k); [discriminate|].
  intro E; inversion E; subst. auto using nodup_fset.
Qed.

Lemma decref_events : forall t k, Forall (fun e => is_fwd e = false) (snd (decref t k)).
Proof.
  intros. unfold decref. destruct (fget t k); simpl; auto.
  destruct (negb (f_ref f - 1 =? 0)%Z); simpl; auto.
Qed.

(* [post] is the handler of the request ([post_h]) followed by the return of the references the request
   may hold ([dec1], three times); [post_tab] is the table it leaves, [post_ev] its events. *)
Definition dec1 (ft : ftab) (ok : option N) : ftab * list event :=
  match ok with Some k => decref ft k | None => (ft, []) end.

Definition post_h (ft : ftab) (t r : msg) (rf : refs) : ftab * list event :=
    match t with
    | Tauth_ _ _ _ _ =>
      (match r, r_afid rf with Rauth_ _, Some a => incref ft a | _, _ => ft end, [])
    | Tattach_ _ _ _ _ _ =>
      (match r, r_fid rf with
       | Rattach_ q, Some k => incref (upd_fid ft k (set_type (q_type q))) k
       | _, _ => ft end, [])
    | Twalk_ fid nf names =>
      (match r, r_newfid rf, r_fid rf with
       | Rwalk_ qs, Some k, Some kf =>
         let fty := match fget ft kf with Some fr => f_type fr | None => 0 end in
         let ft1 := upd_fid ft k (set_type (last_qid_type qs fty)) in
         if negb (length qs =? length names)%nat then ft
         else if negb (k =? kf) then incref ft1 k else ft1
       | _, _, _ => ft end, [])
    | Topen_ _ _ =>
      (match r_fid rf with
       | Some k => if is_rtype r c_Ropen then upd_fid ft k (set_opened true) else ft
       | None => ft end, [])
    | Tcreate_ _ _ _ _ _ =>
      (match r, r_fid rf with
       | Rcreate_ q _, Some k => upd_fid (upd_fid ft k (set_type (q_type q))) k (set_opened true)
       | _, _ => ft end, [])
    | Tread_ _ _ _ =>
      (match r, r_fid rf with
       | Rread_ data, Some k =>
         match fget ft k with
         | Some fr => if has_bit (f_type fr) c_QTDIR
                      then upd_fid ft k (set_diroff ((f_diroff fr + len data) mod 18446744073709551616))
                      else ft
         | None => ft end
       | _, _ => ft end, [])
    | Tclunk_ _ =>
      match r, r_fid rf with
      | Rclunk_, Some k => decref ft k
      | _, _ => (ft, []) end
    | Tremove_ _ =>
      match r_fid rf with
      | Some k => decref ft k
      | None => (ft, []) end
    | _ => (ft, [])
    end.

Definition post_tab (ft : ftab) (t r : msg) (rf : refs) : ftab :=
  fst (dec1 (fst (dec1 (fst (dec1 (fst (post_h ft t r rf)) (r_fid rf))) (r_afid rf))) (r_newfid rf)).

Definition post_ev (ft : ftab) (t r : msg) (rf : refs) : list event :=
  let h := post_h ft t r rf in
  let d1 := dec1 (fst h) (r_fid rf) in
  let d2 := dec1 (fst d1) (r_afid rf) in
  let d3 := dec1 (fst d2) (r_newfid rf) in
  snd h ++ snd d1 ++ snd d2 ++ snd d3.

Lemma post_eq : forall c t r rf,
  post c t r rf = (with_fids c (post_tab (c_fids c) t r rf), post_ev (c_fids c) t r rf).
Proof.
  intros. unfold post, post_tab, post_ev. fold (post_h (c_fids c) t r rf).
  destruct (post_h (c_fids c) t r rf) as [ft0 ev0]. cbn [fst snd].
  fold (dec1 ft0 (r_fid rf)). destruct (dec1 ft0 (r_fid rf)) as [ft1 ev1]. cbn [fst snd].
  fold (dec1 ft1 (r_afid rf)). destruct (dec1 ft1 (r_afid rf)) as [ft2 ev2]. cbn [fst snd].
  fold (dec1 ft2 (r_newfid rf)). destruct (dec1 ft2 (r_newfid rf)) as [ft3 ev3]. cbn [fst snd].
  reflexivity.
Qed.

Lemma fget_dec1 : forall t ok k',
  fget (fst (dec1 t ok)) k' =
  match ok with Some k => if k =? k' then dece (fget t k') else fget t k' | None => fget t k' end.
Proof. intros. destruct ok; simpl; auto. rewrite fget_decref. destruct (n =? k'); reflexivity. Qed.

Lemma count_destroy_dec1 : forall t ok k',
  count_destroy k' (snd (dec1 t ok)) =
  match ok with Some k => if k =? k' then dcnt (fget t k') else 0%nat | None => 0%nat end.
Proof. intros. destruct ok; simpl; auto using count_destroy_decref. Qed.

Lemma nodup_dec1 : forall t ok, NoDup (map fst t) -> NoDup (map fst (fst (dec1 t ok))).
Proof. intros. destruct ok; simpl; auto using nodup_decref. Qed.

Lemma dec1_events : forall t ok, Forall (fun e => is_fwd e = false) (snd (dec1 t ok)).
Proof. intros. destruct ok; simpl; auto using decref_events. Qed.

Definition reply0 (t : msg) (p : pre) (sc : script) : msg :=
    match p with
    | PReject (e, n) => Rerror_ e n
    | PDirect r => r
    | PForward | PAuthOp =>
      match t, p with
      | Tclunk_ _, PAuthOp => Rclunk_
      | _, _ =>
      match sc_ans sc with
      | AOk r => match t, r with
                 | Tauth_ _ _ _ _, Rauth_ q =>
                   Rauth_ (mkQid (N.lor (q_type q) c_QTAUTH) (q_vers q) (q_path q))
                 | _, _ => r end
      | AErr e n => Rerror_ e n
      end
      end
    end.

Lemma seq_step_eq : forall cfg c t sc,
  seq_step cfg c t sc =
  let '(c1, rf, p, ev) := process_pre cfg c t sc in
  let r := fit (c_dotu c1) (c_msize c) (reply0 t p sc) in
  (with_fids c1 (post_tab (c_fids c1) t r rf), on_wire (c_dotu c1) r, ev ++ post_ev (c_fids c1) t r rf).
Proof.
  intros. unfold seq_step. destruct (process_pre cfg c t sc) as [[[c1 rf] p] ev].
  fold (reply0 t p sc). rewrite post_eq. reflexivity.
Qed.

Lemma fget_fset_eq t k r : fget (fset t k r) k = Some r.
Proof. rewrite fget_fset, N.eqb_refl; auto. Qed.
Lemma fget_fset_ne t k r k' : (k =? k') = false -> fget (fset t k r) k' = fget t k'.
Proof. intros H; rewrite fget_fset, H; auto. Qed.
Lemma fget_fdel_eq t k : fget (fdel t k) k = None.
Proof. rewrite fget_fdel, N.eqb_refl; auto. Qed.
Lemma fget_fdel_ne t k k' : (k =? k') = false -> fget (fdel t k) k' = fget t k'.
Proof. intros H; rewrite fget_fdel, H; auto. Qed.
Lemma fget_incref_eq t k : fget (incref t k) k = ince (fget t k).
Proof. rewrite fget_incref, N.eqb_refl; auto. Qed.
Lemma fget_incref_ne t k k' : (k =? k') = false -> fget (incref t k) k' = fget t k'.
Proof. intros H; rewrite fget_incref, H; auto. Qed.
Lemma fget_upd_fid_eq t k f : fget (upd_fid t k f) k = option_map f (fget t k).
Proof. rewrite fget_upd_fid, N.eqb_refl; auto. Qed.
Lemma fget_upd_fid_ne t k f k' : (k =? k') = false -> fget (upd_fid t k f) k' = fget t k'.
Proof. intros H; rewrite fget_upd_fid, H; auto. Qed.
Lemma fget_decref_eq t k : fget (fst (decref t k)) k = dece (fget t k).
Proof. rewrite fget_decref, N.eqb_refl; auto. Qed.
Lemma fget_decref_ne t k k' : (k =? k') = false -> fget (fst (decref t k)) k' = fget t k'.
Proof. intros H; rewrite fget_decref, H; auto. Qed.
Lemma cd_decref_eq t k : count_destroy k (snd (decref t k)) = dcnt (fget t k).
Proof. rewrite count_destroy_decref, N.eqb_refl; auto. Qed.
Lemma cd_decref_ne t k k' : (k =? k') = false -> count_destroy k' (snd (decref t k)) = 0%nat.
Proof. intros H; rewrite count_destroy_decref, H; auto. Qed.
Lemma vget_vset_eq v k u : vget (vset v k u) k = Some u.
Proof. rewrite vget_vset, N.eqb_refl; auto. Qed.
Lemma vget_vset_ne v k u k' : (k =? k') = false -> vget (vset v k u) k' = vget v k'.
Proof. intros H; rewrite vget_vset, H; auto. Qed.
Lemma vget_vdel_eq v k : vget (vdel v k) k = None.
Proof. rewrite vget_vdel, N.eqb_refl; auto. Qed.
Lemma vget_vdel_ne v k k' : (k =? k') = false -> vget (vdel v k) k' = vget v k'.
Proof. intros H; rewrite vget_vdel, H; auto. Qed.
Lemma count_destroy_nil : forall k, count_destroy k [] = 0%nat.
Proof. reflexivity. Qed.
Lemma count_destroy_cons : forall k e l,
  count_destroy k (e :: l) =
  ((match e with EvDestroy k0 => if N.eqb k0 k then 1 else 0 | _ => 0 end) + count_destroy k l)%nat.
Proof. intros. unfold count_destroy. simpl. destruct e; auto. destruct (fid =? k); auto. Qed.

Arguments incref : simpl never.
Arguments decref : simpl never.
Arguments upd_fid : simpl never.
Arguments fset : simpl never.
Arguments fdel : simpl never.
Arguments fget : simpl never.
Arguments vget : simpl never.
Arguments vset : simpl never.
Arguments vdel : simpl never.
Arguments abs : simpl never.
Arguments oabs : simpl never.
Arguments tabs : simpl never.
Arguments count_destroy : simpl never.
Arguments N.eqb : simpl never.
Arguments has_bit : simpl never.
Arguments N.land : simpl never.
Arguments N.lor : simpl never.

Lemma fget_if : forall (b : bool) t1 t2 k, fget (if b then t1 else t2) k = if b then fget t1 k else fget t2 k.
Proof. destruct b; reflexivity. Qed.

(* what differs on the wire in plain 9P2000 (the ecode of Rerror, the extensions) is read by no specification *)
Lemma spec_steps_norm : forall t du r,
  (forall v, spec_step v t (norm_msg du r) = spec_step v t r) /\
  (forall v, ospec_step v t (norm_msg du r) = ospec_step v t r) /\
  (forall v, tspec_step v t (norm_msg du r) = tspec_step v t r).
Proof.
  intros. destruct du; [auto|]. destruct r; repeat split; try reflexivity; destruct t; reflexivity.
Qed.

Definition fit_text (dotu : bool) (cap : N) (e : bytes) : bytes :=
  if 7 + 2 + len e + (if dotu then 4 else 0) <=? cap then e else firstn (N.to_nat (cap - 13)) e.
Lemma fit_rerror : forall du cap e n, fit du cap (Rerror_ e n) = Rerror_ (fit_text du cap e) n.
Proof. intros. unfold fit, fit_error, fit_text. destruct (_ <=? _); reflexivity. Qed.
Lemma reply0_reject : forall t e sc, reply0 t (PReject e) sc = Rerror_ (fst e) (snd e).
Proof. intros. destruct e; reflexivity. Qed.

(* the pairs (request, reply) on which a post-handler or a specification acts *)
Definition reply_matters (t r : msg) : bool :=
  match t, r with
  | Tauth_ _ _ _ _, Rauth_ _ | Tattach_ _ _ _ _ _, Rattach_ _ | Twalk_ _ _ _, Rwalk_ _ | Topen_ _ _, Ropen_ _ _
  | Tcreate_ _ _ _ _ _, Rcreate_ _ _ | Tread_ _ _ _, Rread_ _ | Tclunk_ _, Rclunk_ => true
  | Tremove_ _, _ => true     (* whatever the reply *)
  | _, _ => false
  end.

Lemma reply_irrelevant : forall t r, reply_matters t r = false ->
  (forall ft rf, post_h ft t r rf = (ft, [])) /\
  (forall v, spec_step v t r = v) /\ (forall v, ospec_step v t r = v) /\ (forall v, tspec_step v t r = v).
Proof.
  intros t r H. destruct t; try (repeat split; reflexivity); try discriminate H;
  destruct r; try discriminate H; repeat split; try reflexivity.
  all: intros; cbn [post_h]; destruct (r_fid rf); reflexivity.
Qed.

(* the reply that matters to a request, Tremove apart, is the one of its own kind *)
Lemma reply_inv : forall t r, reply_matters t r = true ->
  match t with
  | Tauth_ _ _ _ _ => exists q, r = Rauth_ q
  | Tattach_ _ _ _ _ _ => exists q, r = Rattach_ q
  | Twalk_ _ _ _ => exists qs, r = Rwalk_ qs
  | Topen_ _ _ => exists q i, r = Ropen_ q i
  | Tcreate_ _ _ _ _ _ => exists q i, r = Rcreate_ q i
  | Tread_ _ _ _ => exists d, r = Rread_ d
  | Tclunk_ _ => r = Rclunk_
  | _ => True
  end.
Proof. destruct t; trivial; destruct r; try discriminate; eauto. Qed.

(* To prove G of the outcome of a request: G passes from the reply as packed to the reply as sent
   ([on_wire]), and G holds of what [process_pre], [reply0] and [post] compute. *)
Lemma seq_step_elim : forall cfg c t sc (G : conn -> msg -> list event -> Prop),
  (forall c' r ev, G c' r ev -> G c' (on_wire (c_dotu c') r) ev) ->
  (let '(c1, rf, p, ev) := process_pre cfg c t sc in
   forall r, r = fit (c_dotu c1) (c_msize c) (reply0 t p sc) ->
   G (with_fids c1 (post_tab (c_fids c1) t r rf)) r (ev ++ post_ev (c_fids c1) t r rf)) ->
  forall c' r ev, seq_step cfg c t sc = (c', r, ev) -> G c' r ev.
Proof.
  intros cfg c t sc G W HG c' r ev H. rewrite seq_step_eq in H.
  destruct (process_pre cfg c t sc) as [[[c1 rf] p] ev1]. injection H as <- <- <-.
  exact (W (with_fids c1 _) _ _ (HG _ eq_refl)).
Qed.

(* the goal about c', r, ev, with [seq_step cfg c t sc = (c', r, ev)] as its first hypothesis, becomes a
   [match] on [process_pre cfg c t sc]; first goal: it holds of the reply as sent if of the reply as packed *)
Ltac seq_paths c' r ev := revert c' r ev; refine (seq_step_elim _ _ _ _ (fun c' r ev => _) _ _).

(* the scrutinee of the innermost [match] at the head of X *)
Ltac innermost X :=
  lazymatch X with
  | match ?Y with _ => _ end => innermost Y
  | (match ?Y with _ => _ end) _ => innermost Y
  | _ => X
  end.

(* decides the innermost scrutinee of the goal's head; a lookup in a table that the path has already
   modified is first reduced to a lookup in the initial table *)
Ltac decide_in X :=
  let Y := innermost X in
  lazymatch Y with
  | fget (incref _ _) _ => rewrite fget_incref
  | fget (fset _ _ _) _ => rewrite fget_fset
  | ?a =? ?a => rewrite N.eqb_refl
  | _ => first [ match goal with E : Y = _ |- _ => rewrite E end | destruct Y eqn:? ]
  end.

(* one step along a path: the [match] at the head of the goal, or of its left-hand side *)
Ltac pre_step :=
  lazymatch goal with
  | |- match ?X with _ => _ end => decide_in X
  | |- match ?X with _ => _ end = _ => decide_in X
  end.

(* Symbolic execution of [process_pre]: on a goal that is a [match] on [process_pre cfg c t sc] (after
   [seq_paths]), [destruct t; pre_cases] leaves one goal per path through process_pre: every [match] and
   [if] of the handler is decided, the guards are hypotheses, and the goal speaks of what the path
   computes.  The paths are explored in the goal: deciding a scrutinee there leaves the hypotheses alone. *)
Ltac pre_cases :=
  unfold process_pre;
  cbv beta iota zeta delta [tfid takes_fid is_tattach c_fids c_msize c_dotu with_fids r_fid lookup_user fidnew ince id no_refs];
  try (change (negb (c_NOFID =? c_NOFID) && _) with false; cbv beta iota);   (* a message that carries no fid *)
  repeat (pre_step; cbv beta iota zeta delta [ince id]).

(* boolean hypotheses: trivial ones go, contradictory ones close the goal, negations, true conjunctions
   and false disjunctions are taken apart *)
Ltac bool_norm :=
  repeat match goal with
  | H : true = true |- _ => clear H
  | H : false = false |- _ => clear H
  | H : None = None |- _ => clear H
  | H : true = false |- _ => discriminate H
  | H : false = true |- _ => discriminate H
  | H : negb true = _ |- _ => simpl in H
  | H : negb false = _ |- _ => simpl in H
  | H : negb _ = true |- _ => apply negb_true_iff in H
  | H : negb _ = false |- _ => apply negb_false_iff in H
  | H : _ && _ = true |- _ => apply andb_true_iff in H; destruct H
  | H : _ || _ = false |- _ => apply orb_false_iff in H; destruct H
  end.

(* the cases of a false conjunction or a true disjunction among the hypotheses *)
Ltac bool_split :=
  repeat match goal with
  | H : _ && _ = false |- _ => apply andb_false_iff in H; destruct H
  | H : _ || _ = true |- _ => apply orb_true_iff in H; destruct H
  end.

(* key comparisons: equal keys are identified, different ones are recorded in both directions *)
Ltac eqb_norm :=
  repeat match goal with
  | H : (?a =? ?a) = false |- _ => rewrite N.eqb_refl in H; discriminate H
  | H : (?a =? ?b) = true |- _ => apply N.eqb_eq in H; subst
  | H : (?a =? ?b) = false |- _ =>
    lazymatch goal with
    | H' : (b =? a) = false |- _ => fail
    | _ => assert (N.eqb b a = false) by (rewrite N.eqb_sym; exact H)
    end
  end.

(* the lookups of the goal that a hypothesis decides *)
Ltac use_fget :=
  repeat match goal with H : fget ?t ?k = _ |- context [fget ?t ?k] => rewrite H end.

(* every entry of the table has one reference (HF): name its fields *)
Ltac use_inv HF :=
  repeat match goal with
  | H : fget _ _ = Some ?r |- _ =>
    is_var r; let R := fresh "R" in pose proof (HF _ _ H) as R; destruct r; cbn [f_ref] in R; subst
  end.

Lemma post_h_events : forall ft t r rf, Forall (fun e => is_fwd e = false) (snd (post_h ft t r rf)).
Proof.
  intros. destruct t; cbn [post_h snd]; auto.
  - destruct r; try apply Forall_nil. destruct (r_fid rf); [apply decref_events|apply Forall_nil].
  - destruct (r_fid rf); [apply decref_events|apply Forall_nil].
Qed.

Lemma post_ev_nofwd : forall ft t r rf, Forall (fun e => is_fwd e = false) (post_ev ft t r rf).
Proof.
  intros. unfold post_ev. cbv zeta.
  repeat (apply Forall_app; split); auto using post_h_events, dec1_events.
Qed.

Lemma existsb_nofwd : forall l, Forall (fun e => is_fwd e = false) l -> existsb is_fwd l = false.
Proof. induction 1; simpl; auto. rewrite H; auto. Qed.

Lemma filter_nofwd : forall l, Forall (fun e => is_fwd e = false) l -> filter is_fwd l = [].
Proof. induction 1; simpl; auto. rewrite H; auto. Qed.

Lemma forwarded_post : forall a ft t r rf, forwarded (a ++ post_ev ft t r rf) = forwarded a.
Proof.
  intros. unfold forwarded. rewrite existsb_app, (existsb_nofwd _ (post_ev_nofwd ft t r rf)).
  apply orb_false_r.
Qed.

Lemma count_fwd_post : forall a ft t r rf, count_fwd (a ++ post_ev ft t r rf) = count_fwd a.
Proof.
  intros. unfold count_fwd. rewrite filter_app, (filter_nofwd _ (post_ev_nofwd ft t r rf)), app_nil_r.
  reflexivity.
Qed.

Lemma in_post_ev : forall e a ft t r rf, In e (a ++ post_ev ft t r rf) -> is_fwd e = true -> In e a.
Proof.
  intros. apply in_app_or in H. destruct H; auto.
  pose proof (post_ev_nofwd ft t r rf) as F. rewrite Forall_forall in F. apply F in H. congruence.
Qed.

Local Hint Resolve nodup_fset nodup_incref nodup_upd_fid nodup_decref nodup_dec1 : core.

(* post applies incref, upd_fid and decref, whatever it decides *)
Lemma post_h_nodup : forall ft t r rf, NoDup (map fst ft) -> NoDup (map fst (fst (post_h ft t r rf))).
Proof.
  intros ft t r rf H. destruct t; cbn [post_h fst]; auto; try (destruct r; auto); cbv zeta;
  repeat match goal with |- context [match ?x with _ => _ end] => destruct x end; auto.
Qed.

Lemma post_tab_nodup : forall ft t r rf, NoDup (map fst ft) -> NoDup (map fst (post_tab ft t r rf)).
Proof. intros. unfold post_tab. auto using post_h_nodup. Qed.

(* What one request does to fid k: e and e' are the entry of k before and after, n is the number of
   FidDestroy calls for k, and u, o, ty are what the three specifications give k afterwards. *)
Set Implicit Arguments.
Record key_ok (k : N) (e e' : option fidrec) (n : nat) (u o ty : option N) : Prop := {
  ko_ref : forall r', e' = Some r' -> f_ref r' = 1%Z;
  ko_nofid : k = c_NOFID -> e' = None;
  ko_user : option_map f_user e' = u;
  ko_once : (n <= 1)%nat;
  ko_gone : e <> None -> e' = None -> n = 1%nat;
  ko_kept : e' <> None -> n = 0%nat;
  ko_open : option_map ocode e' = o;
  ko_type : option_map f_type e' = ty }.
Unset Implicit Arguments.

(* an entry that the request leaves as it was *)
Lemma key_ok_same : forall k e,
  (forall r, e = Some r -> f_ref r = 1%Z) -> (k = c_NOFID -> e = None) ->
  key_ok k e e 0 (option_map f_user e) (option_map ocode e) (option_map f_type e).
Proof. intros k e HF HN. constructor; auto; congruence. Qed.

(* a reference taken and given back *)
Lemma dece_ince : forall e,
  (forall r, e = Some r -> f_ref r = 1%Z) -> dece (ince e) = e /\ dcnt (ince e) = 0%nat.
Proof. intros [[]|] H; [|split; reflexivity]. specialize (H _ eq_refl). cbn in H. subst. split; reflexivity. Qed.

Lemma post_no_refs : forall ft t r, post_tab ft t r no_refs = ft /\ post_ev ft t r no_refs = [].
Proof.
  intros. unfold post_tab, post_ev.
  replace (post_h ft t r no_refs) with (ft, @nil event) by (destruct t; try reflexivity; destruct r; reflexivity).
  split; reflexivity.
Qed.

(* Most paths of process_pre take no reference, or only the one of the lookup ([held]), and end with a reply
   that neither post nor the specifications look at: every entry is then as it was. *)
Lemma key_ok_returned : forall ft t rr k held ev,
  (forall k r, fget ft k = Some r -> f_ref r = 1%Z) -> fget ft c_NOFID = None ->
  reply_matters t rr = false -> count_destroy k ev = 0%nat ->
  let T := match held with Some a => incref ft a | None => ft end in
  key_ok k (fget ft k) (fget (post_tab T t rr (mkRefs held None None)) k)
    (count_destroy k (ev ++ post_ev T t rr (mkRefs held None None)))
    (vget (spec_step (abs ft) t rr) k) (vget (ospec_step (oabs ft) t rr) k) (vget (tspec_step (tabs ft) t rr) k).
Proof.
  intros ft t rr k held ev HF HN RM EV T. destruct (reply_irrelevant _ _ RM) as (R0 & -> & -> & ->).
  unfold post_tab, post_ev. rewrite R0, !count_destroy_app, EV, vget_abs, vget_oabs, vget_tabs. subst T.
  destruct held as [a|]; cbn [dec1 r_fid r_afid r_newfid fst snd];
  [ rewrite fget_decref, count_destroy_decref, fget_incref;
    destruct (a =? k); [destruct (dece_ince _ (HF k)) as [-> ->]|] |];
  (apply key_ok_same; [apply HF | intros ->; exact HN]).
Qed.

(* the specifications on the abstractions of the table, at entry level *)
Ltac eval_vget :=
  rewrite ?vget_vset, ?vget_vdel, ?vget_abs, ?vget_oabs, ?vget_tabs.

(* A table built by operations, at entry level: every operation becomes a test of its key against the key
   looked up.  [entry T k] is the proof of [fget T k = ...], one step per operation of T, so that a table
   term is rewritten once. *)
Ltac entry T k :=
  lazymatch T with
  | incref ?T' ?a => let p := entry T' k in constr:(eq_trans (fget_incref T' a k) (f_equal (if a =? k then ince else id) p))
  | upd_fid ?T' ?a ?g => let p := entry T' k in constr:(eq_trans (fget_upd_fid T' a g k) (f_equal (if a =? k then option_map g else id) p))
  | fst (decref ?T' ?a) => let p := entry T' k in constr:(eq_trans (fget_decref T' a k) (f_equal (if a =? k then dece else id) p))
  | fset ?T' ?a ?r => let p := entry T' k in constr:(eq_trans (fget_fset T' a r k) (f_equal (fun e => if a =? k then Some r else e) p))
  | _ => constr:(eq_refl (fget T k))
  end.

(* the same for the FidDestroy calls in a list of events *)
Ltac destroys L k :=
  lazymatch L with
  | ?a ++ ?b =>
    let p := destroys a k in let q := destroys b k in
    constr:(eq_trans (count_destroy_app k a b) (f_equal2 Nat.add p q))
  | ?e :: ?l => let q := destroys l k in constr:(eq_trans (count_destroy_cons k e l) (f_equal (Nat.add _) q))
  | snd (decref ?T ?a) => constr:(count_destroy_decref T a k)
  | [] => constr:(count_destroy_nil k)
  | _ => constr:(eq_refl (count_destroy k L))
  end.

(* every lookup of the goal in a table built by operations, at entry level *)
Ltac eval_entries :=
  repeat match goal with
  | |- context [fget (if ?b then ?t1 else ?t2) ?k] => rewrite (fget_if b t1 t2 k)
  | |- context [fget ?T ?k] => lazymatch T with _ _ => idtac end; let p := entry T k in rewrite p
  end.

(* decide the key comparisons of the goal: by reflexivity, by a hypothesis, or by cases *)
Ltac decide_keys :=
  repeat match goal with
  | |- context [?a =? ?a] => rewrite N.eqb_refl
  | Q : (?a =? ?b) = _ |- context [?a =? ?b] => rewrite Q
  | |- context [?a =? ?b] => destruct (a =? b) eqn:?; eqb_norm
  end.

Local Arguments last_qid_type : simpl never.
Local Arguments N.add : simpl never.

Lemma step_key : forall cfg c t sc c' r ev k,
  (forall k r, fget (c_fids c) k = Some r -> f_ref r = 1%Z) ->
  fget (c_fids c) c_NOFID = None ->
  seq_step cfg c t sc = (c', r, ev) ->
  key_ok k (fget (c_fids c) k) (fget (c_fids c') k) (count_destroy k ev)
    (vget (spec_step (abs (c_fids c)) t r) k) (vget (ospec_step (oabs (c_fids c)) t r) k)
    (vget (tspec_step (tabs (c_fids c)) t r) k).
Proof.
  intros cfg c t sc c' r ev k HF HN. seq_paths c' r ev.
  { intros c' r ev. unfold on_wire. destruct (spec_steps_norm t (c_dotu c') r) as (-> & -> & ->). trivial. }
  destruct c as [ms du ft]. cbn [c_fids] in HF, HN.
  (* one goal per path of process_pre; the reply is an error, or whatever the implementation answered *)
  destruct t; pre_cases; intros rr Er; first [rewrite reply0_reject, fit_rerror in Er; subst rr | clear Er];
  (* nothing taken, or only the reference of the lookup, and a reply that changes nothing *)
  try match goal with |- context [post_tab ?T _ _ (mkRefs ?h None None)] =>
    lazymatch T with ft => idtac | incref ft _ => idtac end;
    apply (key_ok_returned ft _ _ k h); [exact HF | exact HN | reflexivity | reflexivity]
  end.
  (* The other paths create a fid, change an attribute, or end in a reply that post acts on.  What the
     implementation answered is of the kind that matters to the request, or of no consequence; the table
     is kept out of sight while this is decided (a small goal is rewritten cheaply). *)
  all: bool_norm; eqb_norm; use_inv HF; unfold post_tab, post_ev;
    match goal with |- context [post_h ?T ?t ?r _] => remember T as T0 eqn:ET;
      lazymatch t with
      | Tremove_ _ => idtac
      | _ =>
        tryif is_var r then
          let RM := fresh "RM" in
          destruct (reply_matters t r) eqn:RM;
          [ apply reply_inv in RM; repeat match type of RM with ex _ => destruct RM as [? RM] end; subst r
          | destruct (reply_irrelevant _ _ RM) as (R0 & R1 & R2 & R3); rewrite ?R0, R1, R2, R3 ]
        else idtac
      end
    end;
    cbn [post_h spec_step ospec_step tspec_step r_fid r_afid r_newfid dec1 fst snd app];
    try change (is_rtype (Ropen_ _ _) c_Ropen) with true; try change (is_rtype (Rerror_ _ _) c_Ropen) with false;
    cbv iota; subst T0;
    (* a walk is complete or not, in place or not: decided before the tables are looked at *)
    try match goal with |- context [(?a =? ?b)%nat] =>
      destruct (a =? b)%nat eqn:?; decide_keys; cbn [negb andb]; cbv iota end.
  (* Every table and event list at entry level, as tests of the keys of the path against k and each other:
     the events first, then the specifications with entry and count out of sight, then the entry. *)
  all: match goal with |- key_ok _ _ ?e' _ _ _ _ => remember e' as E' eqn:HE' end;
       match goal with |- key_ok ?k _ _ (count_destroy _ ?L) _ _ _ => let p := destroys L k in rewrite p end;
       match goal with |- key_ok _ _ _ ?n _ _ _ => remember n as Nn eqn:HN' end;
       do 2 (eval_vget; use_fget; cbn); subst E' Nn.
  all: eval_entries; use_fget; decide_keys; use_fget; cbn.
  (* post of Twalk and Tread looks an entry up before it acts; the walk specifications compare lengths *)
  all: repeat (match goal with |- context [if ?c then _ else _] => destruct c eqn:? end;
               eval_entries; eval_vget; use_fget; decide_keys; cbn).
  (* k is none of the keys of the path; or the entries are explicit and the eight clauses are checked *)
  all: try (apply key_ok_same; [apply HF | intros ->; exact HN]).
  all: rewrite ?HN; constructor; intros;
       repeat match goal with HH : Some _ = Some _ |- _ => injection HH as <- end;
       try discriminate; try reflexivity; try congruence; try lia.
  all: cbn in *; subst; bool_norm; bool_split; bool_norm; eqb_norm; rewrite ?HN; try discriminate; try reflexivity; congruence.
Qed.

Definition attr_concl (c : conn) (t : msg) (c' : conn) (r : msg) (k : N) : Prop :=
  option_map ocode (fget (c_fids c') k) = vget (ospec_step (oabs (c_fids c)) t r) k /\
  option_map f_type (fget (c_fids c') k) = vget (tspec_step (tabs (c_fids c)) t r) k.

(* open state (f_opened / f_omode) and type bits (f_type) against ospec_step / tspec_step *)
Lemma step_key_attr : forall cfg c t sc c' r ev k,
  (forall k r, fget (c_fids c) k = Some r -> f_ref r = 1%Z) ->
  fget (c_fids c) c_NOFID = None ->
  seq_step cfg c t sc = (c', r, ev) -> attr_concl c t c' r k.
Proof.
  intros until k. intros HF HN H.
  destruct (step_key _ _ _ _ _ _ _ k HF HN H). split; assumption.
Qed.
