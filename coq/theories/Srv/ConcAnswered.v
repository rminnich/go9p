(* Every Tflush is answered: the winner of the flushed request walks the whole list of
   flush requests waiting for it. *)
From Coq Require Import NArith List Lia.
From V9 Require Import Lib.GoSem Gen.Consts Srv.Conc Srv.ConcInv Srv.ConcStep Srv.ConcWF Srv.ConcMono Srv.ConcCount
  Srv.ConcContent Srv.ConcWin Srv.ConcLocal Srv.ConcOrder Srv.ConcFlush.
Import ListNotations.

(* a request past the dispatch was answered, has found its target, or was handed to the implementation *)
Definition DInv (s : st) : Prop :=
  forall t q, getq s t = Some q -> ~ pre (q_pc q) ->
    In t (map f_req (F s)) \/ q_target q <> None \/ q_called q = true.

Lemma leaves_dispatch : forall c s l r q q', getq s r = Some q -> qstep c s l r q q' ->
  pre (q_pc q) -> ~ pre (q_pc q') -> starts c s l r \/ q_target q' <> None \/ q_called q' = true.
Proof.
  intros c s l r q q' Hq Q P NP. destruct Q; simpl in *; try (elim NP; assumption); try (elim NP; exact I);
    try rewrite Hpc in P; try contradiction; eauto using starts; try (right; left; discriminate).
Qed.

Lemma DInv_step : forall c s l s', reach c s -> DInv s -> Step c s l s' -> DInv s'.
Proof.
  intros c s l s' Rc D H t q' Hq' NP. pose proof (reach_WF _ _ Rc) as W.
  destruct (step_getq _ _ _ _ W H _ _ Hq') as [(q & Hq & M) | (_ & tag & k & -> & -> & ->)].
  2: { elim NP. simpl. destruct (alookup (reqs s) tag); exact I. }
  destruct (pre_dec (q_pc q)) as [P | NP0].
  - destruct M as [-> | Q]; [contradiction|].
    destruct (leaves_dispatch _ _ _ _ _ _ Hq Q P NP) as [St | X]; auto.
    left. apply in_map_iff. exists (new_frame t). split; auto. eapply starts_frame; eauto.
  - destruct (D _ _ Hq NP0) as [X | [X | X]].
    + left. eapply responded_on_step; eauto.
    + right. left. destruct (qmove_target _ _ _ _ _ _ M) as [-> | (_ & Y & _)]; auto.
      elim NP0. rewrite Y. exact I.
    + right. right. destruct (qmove_evol _ _ _ _ _ _ M) as (_ & _ & _ & _ & _ & _ & Cl & _). auto.
Qed.

Lemma reach_DInv : forall c s, reach c s -> DInv s.
Proof. intros c. apply reach_inv; [|apply DInv_step]. intros t q Hq. destruct t; discriminate. Qed.

Lemma done_no_cur : forall c s, reach c s -> forall w, In w (F s) -> f_pc w = RDone -> f_cur w = None.
Proof.
  intros c. apply (reach_inv c (fun s => forall w, In w (F s) -> f_pc w = RDone -> f_cur w = None)).
  - intros w [].
  - intros s l s' Rc IH H w' Hi Hpc.
    destruct (step_frame _ _ _ _ _ H Hi) as [Ho | [(fi & w & _ & Hn & St) | (x & -> & _)]]; auto.
    destruct St; simpl in *; try discriminate; auto.
Qed.

(* requests in the table have not been unlinked *)
Definition LiveInv (s : st) : Prop :=
  forall k v, In (k, v) (reqs s) -> (exists q, getq s v = Some q /\ q_tag q = k) /\ ~ won_past s v 4.

Lemma LiveInv_step : forall c s l s', reach c s -> NG s -> LiveInv s -> Step c s l s' -> LiveInv s'.
Proof.
  intros c s l s' Rc N L H k v Hi. pose proof (reach_WF c s Rc) as W. pose proof (reach_GInv c s Rc) as G.
  assert (Fresh : forall x, length (R s) <= x -> ~ won_past s' x 4).
  { intros x Lx (w' & Hw & Er & Ww & _).
    destruct (step_frame _ _ _ _ _ H Hw) as [Ho | [(fi & w & _ & Hn & St) | (y & -> & _)]]; [| |discriminate].
    - destruct (wf_F s W w' Ho). lia.
    - destruct (fstep_adv _ _ _ _ St) as (E & _). destruct (wf_F s W w (nth_error_In _ _ Hn)). lia. }
  destruct (reqs_step _ _ _ _ _ _ H Hi) as [Hi0 | (kd & -> & ->)].
  2: { split; [|apply Fresh; auto]. rewrite (step_arrive _ _ _ _ _ W H). eexists. split; eauto. }
  destruct (L _ _ Hi0) as ((q & Hq & Et) & B). split.
  { destruct (step_evol _ _ _ _ W H _ _ Hq) as (q' & Hq' & Eq & _). exists q'. split; congruence. }
  intros (w' & Hw & Er & Ww & Ow).
  destruct (step_frame _ _ _ _ _ H Hw) as [Ho | [(fi & w & -> & Hn & St) | (y & -> & _)]]; [| |discriminate].
  { apply B. exists w'. auto. }
  destruct (fstep_adv _ _ _ _ St) as (E & _ & Keep). pose proof (nth_error_In _ _ Hn) as Hw0.
  destruct (f_pc w) eqn:Hfp; try (apply B; exists w; destruct Keep as (Kw & _); [discriminate|];
    repeat split; auto; try congruence; rewrite Hfp; simpl; lia);
    inversion St; try congruence; subst w'; simpl in *; try lia.
  - destruct (q_resp q0); simpl in *; [discriminate | lia].
  - (* R2: the winner takes its request out of the table *)
    rewrite (NG_noprev s G N _ _ Hfq) in Hp. discriminate.
  - assert (q0 = q) by congruence. subst q0.
    remember (LR fi) as l eqn:El. globals_cases H; try discriminate El; try subst l.
    + destruct (Hl w Hn) as (X & _). destruct (X Hfp) as (q1 & nx & Y1 & Y2). congruence.
    + inversion El; subst fi0. assert (f = w) by congruence. subst f. assert (q0 = q) by congruence. subst q0.
      rewrite Erq in Hi. apply aremove_In in Hi. destruct Hi. congruence.
    + inversion El; subst. congruence.
Qed.

Lemma reach_LiveInv : forall c s, reach c s -> NG s -> LiveInv s.
Proof. intros c. apply reach_NG_inv; [intros k v [] | apply LiveInv_step]. Qed.

(* [lreach s o y]: y is on the list of waiting flushes that starts at o *)
Inductive lreach (s : st) : option nat -> nat -> Prop :=
| lr_here x : lreach s (Some x) x
| lr_next x q y : getq s x = Some q -> lreach s (q_flushnext q) y -> lreach s (Some x) y.

Lemma lreach_inv : forall s x y, lreach s (Some x) y ->
  y = x \/ exists q, getq s x = Some q /\ lreach s (q_flushnext q) y.
Proof. intros. inversion H; subst; eauto. Qed.

Lemma lreach_none : forall s y, ~ lreach s None y.
Proof. intros s y H. inversion H. Qed.

Lemma flushnext_keep : forall c s l s' x q, reach c s -> NG s -> Step c s l s' ->
  getq s x = Some q -> qo s x q_target <> None ->
  exists q', getq s' x = Some q' /\ q_flushnext q' = q_flushnext q.
Proof.
  intros c s l s' x q Rc N H Hq Ht. pose proof (reach_WF c s Rc) as W.
  destruct (step_evol _ _ _ _ W H _ _ Hq) as (q' & Hq' & _). exists q'. split; auto.
  destruct (qmove_links _ _ _ _ _ _ Hq (step_getq_old _ _ _ _ _ _ _ W H Hq Hq')) as (_ & [E | [(_ & E & _) | E]]);
    auto; exfalso.
  - rewrite (qo_getq _ _ _ _ Hq) in Ht. apply Ht, (pre_no_target _ _ _ _ Rc Hq). rewrite E. exact I.
  - eapply NG_norelink; eauto.
Qed.

Lemma lreach_step : forall c s l s' o y, reach c s -> NG s -> Step c s l s' ->
  lreach s o y -> (forall z, o = Some z -> qo s z q_target <> None) -> lreach s' o y.
Proof.
  intros c s l s' o y Rc N H Lr. induction Lr; intros Hd.
  - constructor.
  - destruct (flushnext_keep c s l s' x q Rc N H H0 (Hd x eq_refl)) as (q' & Hq' & E).
    eapply lr_next; eauto. rewrite E. apply IHLr.
    intros z Hz. destruct (ch_next s _ _ _ (reach_CHInv c s Rc N) H0 Hz) as (A & B).
    rewrite B. auto.
Qed.

(* what the winner of t still has to visit *)
Definition rem (s : st) (w : frame) : option nat :=
  match f_pc w with
  | R7 => match f_cur w with Some x => qo s x q_flushnext | None => None end
  | _ => f_cur w
  end.

Lemma rem_head : forall c s w z, reach c s -> NG s -> In w (F s) -> rem s w = Some z -> qo s z q_target <> None.
Proof.
  intros c s w z Rc N Hi Hr. pose proof (reach_CHInv c s Rc N) as C. unfold rem in Hr.
  assert (X : forall x, f_cur w = Some x -> qo s x q_target <> None).
  { intros x Hx. destruct (ch_cur s C w x Hi Hx) as (A & _). congruence. }
  destruct (f_pc w); auto.
  destruct (f_cur w) as [x|] eqn:Ec; [|discriminate]. destruct (qo_inv _ _ _ _ Hr) as (qx & Ex & Hz).
  destruct (ch_next s _ _ _ C Ex Hz) as (A & B). rewrite B. auto.
Qed.

Lemma rem_keep : forall c s l s' w, reach c s -> NG s -> Step c s l s' -> In w (F s) ->
  rem s' w = rem s w.
Proof.
  intros c s l s' w Rc N H Hi. unfold rem. destruct (f_pc w); auto.
  destruct (f_cur w) as [x|] eqn:Ec; auto.
  destruct (ch_cur s (reach_CHInv c s Rc N) w x Hi Ec) as (A & _). unfold qo in *.
  destruct (getq s x) as [qx|] eqn:Ex; [|discriminate].
  destruct (flushnext_keep c s l s' x qx Rc N H Ex) as (q' & -> & E); auto.
  unfold qo. rewrite Ex. congruence.
Qed.

(* f has been answered, or the winner w will come to it *)
Definition covered (s : st) (w : frame) (f : nat) : Prop := In f (map f_req (F s)) \/ lreach s (rem s w) f.

Lemma covered_move : forall c s l s' w0 w' f, reach c s -> NG s -> Step c s l s' -> In w0 (F s) ->
  covered s w0 f -> rem s' w' = rem s w0 -> covered s' w' f.
Proof.
  intros c s l s' w0 w' f Rc N H Hi [X | X] E.
  - left. eapply responded_on_step; eauto.
  - right. rewrite E. eapply lreach_step; eauto. intros z Hz. eapply rem_head; eauto.
Qed.

(* before the target is unlinked f is in its list; afterwards the winner covers it *)
Definition cov1 (s : st) (f t : nat) : Prop :=
  ~ won_past s t 4 -> exists qt, getq s t = Some qt /\ lreach s (q_flushreq qt) f.

Definition cov2 (s : st) (f t : nat) : Prop :=
  forall w, In w (F s) -> f_req w = t -> f_won w = true -> 4 <= ord (f_pc w) -> covered s w f.

Definition CovInv (s : st) : Prop :=
  forall f t, qo s f q_target = Some t -> cov1 s f t /\ cov2 s f t.

Lemma cov2_step : forall c s l s' f t, reach c s -> NG s -> Step c s l s' ->
  cov1 s f t -> cov2 s f t -> cov2 s' f t.
Proof.
  intros c s l s' f t Rc N H C1 C2 w' Hi Er Hw Ho.
  pose proof (reach_GInv c s Rc) as G. pose proof (reach_CHInv c s Rc N) as C.
  destruct (step_frame _ _ _ _ _ H Hi) as [Hi0 | [(fi & w & -> & Hn & St) | (x & -> & _)]]; [| |discriminate].
  { eapply covered_move; eauto using rem_keep. }
  pose proof (nth_error_In _ _ Hn) as Hw0. destruct (fstep_adv _ _ _ _ St) as (E & _ & Keep).
  assert (Cv : 4 <= ord (f_pc w) -> covered s w f).
  { intro X. apply C2; auto; try congruence. destruct Keep as (<- & _); auto.
    intro Y. rewrite Y in X. simpl in X. lia. }
  destruct St; simpl in Ho, Hw; try (rewrite Hfp in Cv; simpl in Cv); try lia.
  - destruct (q_resp q); simpl in *; [discriminate | lia].
  - rewrite (NG_noprev s G N _ _ Hfq) in Hp. discriminate.
  - (* R2: the winner picks up the list *)
    assert (Live : ~ won_past s (f_req w) 4) by (apply (not_past s w 4 G Hw0); rewrite Hfp; simpl; auto).
    simpl in Er. rewrite Er in Live. destruct (C1 Live) as (qt & Hqt & Lr).
    assert (qt = q) by congruence. subst qt.
    right. unfold rem. simpl. eapply lreach_step; eauto.
    intros z Hz. rewrite (ch_req s _ _ _ C Hfq Hz). discriminate.
  - (* R5 *)
    apply (covered_move c s _ s' w _ f Rc N H Hw0); [apply Cv; lia|]. unfold rem, fr_set. simpl. rewrite Hfp. reflexivity.
  - (* R6, list exhausted *)
    destruct Cv as [X | X]; [lia | left; eapply responded_on_step; eauto|].
    exfalso. unfold rem in X. rewrite Hfp, Hcur in X. eapply lreach_none; eauto.
  - (* R6, next waiting flush *)
    destruct Cv as [X | X]; [lia | left; eapply responded_on_step; eauto|].
    unfold rem in X. rewrite Hfp, Hcur in X. apply lreach_inv in X. destruct X as [-> | (qx & Hqx & X)].
    + left. apply in_map_iff. exists (new_frame x). split; auto. eapply starts_frame; eauto. eapply St_r6; eauto.
    + right. unfold rem. simpl.
      destruct (flushnext_keep c s _ s' x qx Rc N H Hqx) as (q' & Hq' & E').
      { destruct (ch_cur s C w x Hw0 Hcur) as (A & _). congruence. }
      unfold qo. rewrite Hq', E'. eapply lreach_step; eauto. intros z Hz.
      destruct (ch_next s _ _ _ C Hqx Hz) as (A & B). rewrite B. auto.
  - (* R7 *)
    apply (covered_move c s _ s' w _ f Rc N H Hw0); [apply Cv; lia|]. unfold rem. simpl. rewrite Hfp, Hcur. unfold qo. rewrite Hqx. auto.
Qed.

Lemma cov1_step : forall c s l s' f t, reach c s -> NG s -> Step c s l s' ->
  cov1 s f t -> cov1 s' f t.
Proof.
  intros c s l s' f t Rc N H C1 NW. pose proof (reach_WF c s Rc) as W.
  assert (NW0 : ~ won_past s t 4).
  { intro X. apply NW. eapply won_past_step; eauto; lia. }
  destruct (C1 NW0) as (qt & Hqt & Lr).
  destruct (step_evol _ _ _ _ W H _ _ Hqt) as (qt' & Hqt' & _). exists qt'. split; auto.
  assert (Hd : forall z, q_flushreq qt = Some z -> qo s z q_target <> None).
  { intros z Hz. rewrite (ch_req s _ _ _ (reach_CHInv c s Rc N) Hqt Hz). discriminate. }
  destruct (qmove_links _ _ _ _ _ _ Hqt (step_getq_old _ _ _ _ _ _ _ W H Hqt Hqt')) as ([E | [(r & -> & E) | E]] & _).
  - rewrite E. eapply lreach_step; eauto.
  - (* a new flush request r chains itself before the old head *)
    destruct (F1_new_head _ _ _ _ _ _ _ W H Hqt Hqt' E) as (qr' & Hr' & _ & En).
    { intro X. apply (Hd _ X). eapply F1_no_target; eauto. }
    rewrite E. eapply lr_next; eauto. rewrite En. eapply lreach_step; eauto.
  - exfalso. eapply NG_norelink; eauto.
Qed.

Lemma CovInv_step : forall c s l s', reach c s -> NG s -> CovInv s -> Step c s l s' -> CovInv s'.
Proof.
  intros c s l s' Rc N Cv H f t Ht. pose proof (reach_WF c s Rc) as W.
  apply qo_inv in Ht. destruct Ht as (qf' & Hq' & Ht).
  destruct (step_getq _ _ _ _ W H _ _ Hq') as [(qf & Hq & M) | (_ & tag & k & -> & -> & ->)]; [|discriminate].
  destruct (qmove_target _ _ _ _ _ _ M) as [Tg | (-> & Pc & _)].
  - (* the target was already known *)
    destruct (Cv f t) as (C1 & C2); [unfold qo; rewrite Hq; congruence|].
    split; [eapply cov1_step | eapply cov2_step]; eauto.
  - (* F1: the flush request has just been linked *)
    destruct (step_actor _ _ _ _ _ _ H eq_refl Hq) as (q1 & Hq1 & Q). assert (q1 = qf') by congruence. subst q1.
    assert (Lk : exists old, q_kind qf = KFlush old /\ alookup (reqs s) old = Some t).
    { inversion Q; subst; simpl in Ht; try congruence; try (inversion Ht; subst; eauto; fail).
      rewrite (pre_no_target _ _ _ _ Rc Hq) in Ht; [discriminate | rewrite Pc; exact I]. }
    destruct Lk as (old & Hk & Hlk). split.
    + intros _. destruct (step_F1_target _ _ _ _ _ _ _ H Hq Hk Hlk) as (qt' & Hqt' & E).
      exists qt'. split; auto. rewrite E. constructor.
    + intros w Hw Er Hwn Ho. exfalso.
      destruct (reach_LiveInv c s Rc N _ _ (alookup_In _ _ _ Hlk)) as (_ & X). apply X.
      destruct (step_frame _ _ _ _ _ H Hw) as [Hw0 | [(fi & w0 & E & _) | (x & -> & _)]];
        [exists w; auto | discriminate | discriminate].
Qed.

Lemma reach_CovInv : forall c s, reach c s -> NG s -> CovInv s.
Proof.
  intros c. apply reach_NG_inv; [|apply CovInv_step]. intros f t X. destruct f; discriminate.
Qed.

Section Quiescence.
  Variables (c : cfg) (s : st).
  Hypothesis (Rc : reach c s) (Q : forall l, is_internal l = true -> step c s l = None)
             (Hc : closed s = false) (N : NG s).

  Lemma quiet_done : outq s = [] /\ forall f, In f (F s) -> f_pc f = RDone.
  Proof.
    pose proof (reach_WF c s Rc) as W.
    assert (O : outq s = []).
    { destruct (outq s) as [|x rest] eqn:E; auto.
      destruct (send_step c s x rest W Hc E) as (qx & Hs). rewrite (Q LSend eq_refl) in Hs. discriminate. }
    split; auto.
    intros f' Hi. apply In_nth_error in Hi. destruct Hi as (fi & Hn).
    destruct (f_pc f') eqn:E; auto; exfalso;
      (eapply (LR_enabled c s fi f' W Hn); [congruence | | apply Q; reflexivity]);
      intros _; right; right; unfold room; rewrite O; reflexivity.
  Qed.

  Lemma quiet_not_pre : forall r q, getq s r = Some q -> ~ pre (q_pc q).
  Proof.
    intros r q Hq P. pose proof (worker_step_enabled c s r q Rc Hq) as En.
    destruct (q_pc q) eqn:Epc; simpl in P; try contradiction.
    - apply (ri_wait q (reach_RInv c s Rc _ _ Hq) Epc). apply (N _ _ Hq).
    - apply En. apply Q. reflexivity.
    - destruct (q_kind q); [| |destruct En as (En & _)]; apply En; apply Q; reflexivity.
  Qed.

  Lemma responded_on_resp : forall t, In t (map f_req (F s)) -> qb s t q_resp = true.
  Proof.
    intros t Hi. apply in_map_iff in Hi. destruct Hi as (w & <- & Hw).
    apply (ci_fr s (reach_CInv c s Rc) w Hw). rewrite (proj2 quiet_done w Hw). discriminate.
  Qed.

  (* the winner of an answered request has walked the whole list of waiting flushes: every
     flush request that named it has had its Respond called *)
  Lemma flusher_of_responded : forall f t, qo s f q_target = Some t -> qb s t q_resp = true ->
    In f (map f_req (F s)).
  Proof.
    intros f t Ht Rs. destruct quiet_done as (_ & Dn).
    destruct (resp_winner s t (reach_GInv c s Rc) Rs) as (w & Hw & Er & Wn).
    destruct (reach_CovInv c s Rc N _ _ Ht) as (_ & C2).
    destruct (C2 w) as [X | X]; auto; [rewrite (Dn w Hw); simpl; lia|].
    exfalso. unfold rem in X. rewrite (Dn w Hw), (done_no_cur c s Rc w Hw (Dn w Hw)) in X.
    eapply lreach_none; eauto.
  Qed.

  (* With everything handed to the implementation answered: a flush request has had its Respond
     called if that holds of the request it names, should that be a flush request too. *)
  Lemma flush_responded_on : (forall r q, getq s r = Some q -> q_called q = true -> q_resp q = true) ->
    forall f qf, getq s f = Some qf -> kflush qf ->
      (forall t qt, q_target qf = Some t -> getq s t = Some qt -> kflush qt -> In t (map f_req (F s))) ->
      In f (map f_req (F s)).
  Proof.
    intros AA f qf Hf KF IH. pose proof (reach_RInv c s Rc) as RI.
    destruct (reach_DInv c s Rc _ _ Hf (quiet_not_pre _ _ Hf)) as [X | [X | X]]; auto.
    2: { destruct KF as (o & K). destruct (ri_called qf (RI _ _ Hf) X). congruence. }
    destruct (q_target qf) as [t|] eqn:Ht; [clear X | congruence].
    apply (flusher_of_responded f t); [unfold qo; rewrite Hf; auto|].
    destruct (target_some s f qf t (reach_WF c s Rc) Hf Ht) as (qt & Hqt).
    destruct (reach_DInv c s Rc _ _ Hqt (quiet_not_pre _ _ Hqt)) as [X | [X | X]].
    - apply responded_on_resp. auto.
    - apply responded_on_resp. apply (IH t qt); auto. apply (ri_target qt (RI _ _ Hqt) X).
    - unfold qb. rewrite Hqt. eauto.
  Qed.
End Quiescence.
