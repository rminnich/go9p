(* The bytes the transport is given for a request were packed for that request. *)
From Coq Require Import List Bool PeanoNat Lia.
From V9 Require Import Lib.ListFacts Srv.Buf.
Import ListNotations.

Lemma nth_upd : forall l i b x, nth_error l i = Some x ->
  forall j, nth_error (upd l i b) j = if j =? i then Some b else nth_error l j.
Proof.
  induction l as [|y l IH]; intros i b x H j; [destruct i; discriminate H|].
  destruct i as [|i]; destruct j as [|j]; cbn [upd nth_error Nat.eqb] in *; try reflexivity.
  exact (IH i b x H j).
Qed.

Lemma upd_length : forall l i b, length (upd l i b) = length l.
Proof.
  induction l as [|x l IH]; intros i b; [reflexivity|].
  destruct i as [|j]; cbn [upd length]; [reflexivity|]. now rewrite IH.
Qed.

Lemma mem_cons : forall x y l, mem x (y :: l) = (x =? y) || mem x l.
Proof. reflexivity. Qed.

Lemma buf_of_some : forall s r i b,
  buf_of s r = Some (i, b) -> alook (rc s) r = Some i /\ nth_error (bufs s) i = Some b.
Proof.
  intros s r i b H. unfold buf_of in H.
  destruct (alook (rc s) r) as [j|]; [|discriminate H].
  destruct (nth_error (bufs s) j) as [x|] eqn:Hx; [|discriminate H].
  inversion H. subst. now split.
Qed.

Definition used (b : buf) (r : nat) : Prop :=
  b_state b = BHeld r \/ b_state b = BQueued r \/ b_state b = BSending r.

Record Inv (s : st) : Prop := mkInv {
  inv_excl : forall i b r, nth_error (bufs s) i = Some b -> used b r ->
     alook (rc s) r = Some i /\ (b_content b = None \/ exists v, b_content b = Some (r, v));
  inv_held : forall r i, alook (rc s) r = Some i -> mem r (responded s) = false ->
     exists b, nth_error (bufs s) i = Some b /\ b_state b = BHeld r;
  inv_sent : forall i b r, nth_error (bufs s) i = Some b ->
     (b_state b = BQueued r \/ b_state b = BSending r) ->
     mem r (responded s) = true /\ exists v, b_content b = Some (r, v);
  inv_pool : forall i, In i (pool s) -> exists b, nth_error (bufs s) i = Some b /\ b_state b = BFree;
  inv_nodup : NoDup (pool s);
  inv_wire : forall r c, In (r, c) (wire s) -> exists v, c = Some (r, v) }.

Lemma inv_init : Inv init.
Proof.
  constructor; cbn [init bufs pool rc responded wire].
  - intros i b r H. destruct i; discriminate H.
  - intros r i H. discriminate H.
  - intros i b r H. destruct i; discriminate H.
  - intros i [].
  - constructor.
  - intros r c [].
Qed.

Lemma used_inj : forall b r r', used b r -> used b r' -> r = r'.
Proof. intros b r r' [H|[H|H]] [H'|[H'|H']]; congruence. Qed.

Lemma free_unused : forall b r, b_state b = BFree -> ~ used b r.
Proof. intros b r H [H'|[H'|H']]; congruence. Qed.

Lemma inv_unanswered_held : forall s r i b,
  Inv s -> buf_of s r = Some (i, b) -> mem r (responded s) = false -> b_state b = BHeld r.
Proof.
  intros s r i b HI Hb Hm. apply buf_of_some in Hb. destruct Hb as [Ha Hn].
  destruct (inv_held s HI r i Ha Hm) as [b' [Hn' Hs]]. congruence.
Qed.

(* what [inv_excl] and [inv_sent] ask of the buffer at index i *)
Definition buf_ok (s : st) (i : nat) (b : buf) : Prop :=
  match b_state b with
  | BFree => True
  | BHeld r => alook (rc s) r = Some i /\ (b_content b = None \/ exists v, b_content b = Some (r, v))
  | BQueued r | BSending r =>
    alook (rc s) r = Some i /\ mem r (responded s) = true /\ exists v, b_content b = Some (r, v)
  end.

Lemma buf_ok_excl : forall s i b r, buf_ok s i b -> used b r ->
  alook (rc s) r = Some i /\ (b_content b = None \/ exists v, b_content b = Some (r, v)).
Proof.
  unfold buf_ok. intros s i b r H [E|[E|E]]; rewrite E in H; [exact H| |]; destruct H as [Ha [_ Hc]]; auto.
Qed.

Lemma buf_ok_sent : forall s i b r, buf_ok s i b -> b_state b = BQueued r \/ b_state b = BSending r ->
  mem r (responded s) = true /\ exists v, b_content b = Some (r, v).
Proof.
  unfold buf_ok. intros s i b r H [E|E]; rewrite E in H; apply H.
Qed.

(* Replacing one buffer: the new one has to be consistent with [rc] and [responded], and may be in
   another state than the old one only if that was in use by an answered request. *)
Lemma Inv_set_buf : forall s i b b',
  Inv s -> nth_error (bufs s) i = Some b -> buf_ok s i b' ->
  (b_state b' = b_state b \/ exists r, used b r /\ mem r (responded s) = true) ->
  Inv (set_buf s i b').
Proof.
  intros s i b b' HI Hn Hok Hst. pose proof (nth_upd (bufs s) i b' b Hn) as Hnth.
  constructor; cbn [set_buf bufs pool rc responded wire].
  - intros j x r Hj. rewrite Hnth in Hj. destruct (Nat.eqb_spec j i) as [->|_].
    + injection Hj as <-. exact (buf_ok_excl s i b' r Hok).
    + exact (inv_excl s HI j x r Hj).
  - intros r j Ha Hm. destruct (inv_held s HI r j Ha Hm) as [x [Hx Hs]].
    rewrite Hnth. destruct (Nat.eqb_spec j i) as [->|_]; [|eauto].
    exists b'. split; [reflexivity|]. assert (x = b) by congruence. subst x.
    destruct Hst as [->|[r' [Hu Hm']]]; [exact Hs|].
    rewrite (used_inj b r r' (or_introl Hs) Hu) in Hm. congruence.
  - intros j x r Hj. rewrite Hnth in Hj. destruct (Nat.eqb_spec j i) as [->|_].
    + injection Hj as <-. exact (buf_ok_sent s i b' r Hok).
    + exact (inv_sent s HI j x r Hj).
  - intros j Hin. destruct (inv_pool s HI j Hin) as [x [Hx Hs]].
    rewrite Hnth. destruct (Nat.eqb_spec j i) as [->|_]; [|eauto].
    exists b'. split; [reflexivity|]. assert (x = b) by congruence. subst x.
    destruct Hst as [->|[r [Hu _]]]; [exact Hs|]. destruct (free_unused b r Hs Hu).
  - exact (inv_nodup s HI).
  - exact (inv_wire s HI).
Qed.

(* A request r without a buffer gets the one at index i, which is free and outside the remaining
   pool p; the buffer list is given by its entries, to cover the recycled and the fresh buffer. *)
Lemma Inv_take : forall s r i bs p,
  Inv s -> alook (rc s) r = None ->
  (forall j, nth_error bs j = if j =? i then Some (mkBuf (BHeld r) None) else nth_error (bufs s) j) ->
  (forall b, nth_error (bufs s) i = Some b -> b_state b = BFree) ->
  NoDup (i :: p) -> incl p (pool s) ->
  Inv (mkSt bs p ((r, i) :: rc s) (responded s) (tokens s) (wire s)).
Proof.
  intros s r i bs p HI Hr Hbs Hfree Hnd Hincl. inversion Hnd as [|x l Hni Hnd']. subst x l.
  constructor; cbn [bufs pool rc responded wire alook].
  - intros j x r' Hj Hu. rewrite Hbs in Hj. destruct (Nat.eqb_spec j i) as [->|_].
    + injection Hj as <-. rewrite (used_inj _ r' r Hu (or_introl eq_refl)), Nat.eqb_refl. auto.
    + destruct (inv_excl s HI j x r' Hj Hu) as [Ha Hc].
      destruct (Nat.eqb_spec r r') as [<-|_]; [congruence|auto].
  - intros r' j Ha Hm. rewrite Hbs. destruct (Nat.eqb_spec r r') as [<-|_].
    + injection Ha as <-. rewrite Nat.eqb_refl. eauto.
    + destruct (inv_held s HI r' j Ha Hm) as [x [Hx Hs]].
      destruct (Nat.eqb_spec j i) as [->|_]; [|eauto].
      rewrite (Hfree x Hx) in Hs. discriminate Hs.
  - intros j x r' Hj Hs. rewrite Hbs in Hj. destruct (Nat.eqb_spec j i) as [->|_].
    + injection Hj as <-. destruct Hs; discriminate.
    + exact (inv_sent s HI j x r' Hj Hs).
  - intros j Hin. destruct (inv_pool s HI j (Hincl j Hin)) as [x [Hx Hs]].
    rewrite Hbs. destruct (Nat.eqb_spec j i) as [->|_]; [contradiction|eauto].
  - exact Hnd'.
  - exact (inv_wire s HI).
Qed.

Lemma Inv_respond : forall s r,
  Inv s -> Inv (mkSt (bufs s) (pool s) (rc s) (r :: responded s) (tokens s) (wire s)).
Proof.
  intros s r HI. constructor; cbn [bufs pool rc responded wire]; try apply HI.
  - intros r' j Ha Hm. rewrite mem_cons in Hm. apply orb_false_iff in Hm.
    exact (inv_held s HI r' j Ha (proj2 Hm)).
  - intros j b r' Hj Hs. destruct (inv_sent s HI j b r' Hj Hs) as [H1 H2].
    split; [rewrite mem_cons, H1; apply orb_true_r|exact H2].
Qed.

Lemma Inv_write : forall s r c,
  Inv s -> (exists v, c = Some (r, v)) ->
  Inv (mkSt (bufs s) (pool s) (rc s) (responded s) (tokens s) (wire s ++ [(r, c)])).
Proof.
  intros s r c HI Hc. constructor; cbn [bufs pool rc responded wire]; try apply HI.
  intros r' c' Hin. apply in_app_or in Hin. destruct Hin as [Hin|[Heq|[]]].
  - exact (inv_wire s HI r' c' Hin).
  - injection Heq as <- <-. exact Hc.
Qed.

Lemma Inv_recycle : forall s i b,
  Inv s -> nth_error (bufs s) i = Some b -> b_state b = BFree -> ~ In i (pool s) ->
  Inv (mkSt (bufs s) (pool s ++ [i]) (rc s) (responded s) (tokens s) (wire s)).
Proof.
  intros s i b HI Hn Hf Hni. constructor; cbn [bufs pool rc responded wire]; try apply HI.
  - intros j Hin. apply in_app_or in Hin. destruct Hin as [Hin|[<-|[]]]; [|eauto].
    exact (inv_pool s HI j Hin).
  - apply (NoDup_Add (Add_app i (pool s) [])). rewrite app_nil_r. split; [exact (inv_nodup s HI)|exact Hni].
Qed.

Lemma inv_step : forall s l s', Inv s -> step fixed_cfg s l = Some s' -> Inv s'.
Proof.
  intros s l s' HI Hstep. destruct l as [r|r|r|r v|r v|r|r|r|r|r];
    cbn [step fixed_cfg atomic_pack recycle_after_write] in Hstep; try discriminate Hstep;
    try (destruct (buf_of s r) as [[i b]|] eqn:Hb; [|discriminate Hstep];
         pose proof (inv_unanswered_held s r i b HI Hb) as Hheld;
         apply buf_of_some in Hb; destruct Hb as [Ha Hn]).
  - (* LTakePool: the head of the pool is free and not in the rest *)
    destruct (alook (rc s) r) eqn:Ha; [discriminate Hstep|].
    destruct (pool s) as [|i rest] eqn:Hp; [discriminate Hstep|]. injection Hstep as <-.
    destruct (inv_pool s HI i) as [bi [Hbi Hfree]]; [rewrite Hp; now left|].
    pose proof (inv_nodup s HI) as Hnd. rewrite Hp in Hnd.
    apply Inv_take; try assumption.
    + exact (nth_upd _ _ _ _ Hbi).
    + intros b Hb. congruence.
    + rewrite Hp. apply incl_tl, incl_refl.
  - (* LTakeFresh: there is nothing yet at the new index *)
    destruct (alook (rc s) r) eqn:Ha; [discriminate Hstep|]. injection Hstep as <-.
    assert (Hnew : nth_error (bufs s) (length (bufs s)) = None) by apply nth_error_None, le_n.
    apply Inv_take; try assumption.
    + apply nth_error_snoc.
    + intros b Hb. congruence.
    + constructor; [|exact (inv_nodup s HI)].
      intros Hin. destruct (inv_pool s HI _ Hin) as [b [Hb _]]. congruence.
    + apply incl_refl.
  - (* LGuardPack: an unanswered request holds its buffer, the content becomes its own *)
    destruct (mem r (responded s)) eqn:Hm; [discriminate Hstep|]. injection Hstep as <-.
    specialize (Hheld eq_refl).
    apply Inv_set_buf with b; [exact HI | exact Hn | | left; reflexivity].
    unfold buf_ok. cbn [b_state b_content]. rewrite Hheld. eauto.
  - (* LRespond: the request is marked as answered first, which lets its buffer change state *)
    destruct (mem r (responded s)) eqn:Hm; [discriminate Hstep|]. specialize (Hheld eq_refl).
    destruct (inv_excl s HI i b r Hn (or_introl Hheld)) as [_ Hc].
    destruct (b_content b) as [c|]; [|discriminate Hstep]. injection Hstep as <-.
    destruct Hc as [Hc|Hc]; [discriminate Hc|].
    assert (Hr : mem r (r :: responded s) = true) by (rewrite mem_cons, Nat.eqb_refl; reflexivity).
    apply (Inv_set_buf _ i b _ (Inv_respond s r HI) Hn).
    + split; [exact Ha|]. split; [exact Hr | exact Hc].
    + right. exists r. split; [left; exact Hheld | exact Hr].
  - (* LRespondFlushed *)
    destruct (alook (rc s) r); [|discriminate Hstep].
    destruct (mem r (responded s)); [discriminate Hstep|]. injection Hstep as <-.
    apply Inv_respond, HI.
  - (* LDequeue *)
    destruct (b_state b) as [|r'|r'|r'] eqn:Hs; try discriminate Hstep.
    destruct (Nat.eqb_spec r' r) as [->|]; [|discriminate Hstep]. injection Hstep as <-.
    destruct (inv_sent s HI i b r Hn (or_introl Hs)) as [Hresp Hcont].
    apply Inv_set_buf with b; [exact HI | exact Hn | |].
    + split; [exact Ha|]. split; [exact Hresp | exact Hcont].
    + right. exists r. split; [right; left; exact Hs | exact Hresp].
  - (* LWrite *)
    destruct (b_state b) as [|r'|r'|r'] eqn:Hs; try discriminate Hstep.
    destruct (Nat.eqb_spec r' r) as [->|]; [|discriminate Hstep]. injection Hstep as <-.
    apply Inv_write; [exact HI|]. apply (inv_sent s HI i b r Hn (or_intror Hs)).
  - (* LRecycle: the buffer is freed, then put at the end of the pool *)
    destruct (b_state b) as [|r'|r'|r'] eqn:Hs; try discriminate Hstep.
    destruct (Nat.eqb_spec r' r) as [->|]; [|discriminate Hstep]. injection Hstep as <-.
    destruct (inv_sent s HI i b r Hn (or_intror Hs)) as [Hresp _].
    apply (Inv_recycle (set_buf s i (mkBuf BFree (b_content b))) i (mkBuf BFree (b_content b))).
    + apply Inv_set_buf with b; [exact HI | exact Hn | exact I |].
      right. exists r. split; [right; right; exact Hs | exact Hresp].
    + cbn [set_buf bufs]. rewrite (nth_upd _ _ _ _ Hn), Nat.eqb_refl. reflexivity.
    + reflexivity.
    + intros Hin. destruct (inv_pool s HI i Hin) as [x [Hx Hf]]. congruence.
Qed.

Lemma inv_run : forall ls s s', Inv s -> run fixed_cfg s ls = Some s' -> Inv s'.
Proof.
  induction ls as [|l ls IH]; intros s s' HI Hrun; cbn [run] in Hrun.
  - inversion Hrun. subst s'. exact HI.
  - destruct (step fixed_cfg s l) as [s1|] eqn:Hstep; [|discriminate Hrun].
    eapply IH; [|exact Hrun]. eapply inv_step; eassumption.
Qed.

Lemma inv_reach : forall s, reach fixed_cfg s -> Inv s.
Proof.
  intros s [ls Hrun]. eapply inv_run; [exact inv_init|exact Hrun].
Qed.

(* every Write for request r hands the transport bytes that were packed for r (never None, never
   another request's), in every reachable state of the fixed configuration: any number of
   requests, buffers recycled between them, any number of answers per request from any goroutine *)
Theorem wire_bytes_belong_to_request : forall s r c,
  reach fixed_cfg s -> In (r, c) (wire s) -> exists v, c = Some (r, v).
Proof.
  intros s r c Hr Hin. exact (inv_wire s (inv_reach s Hr) r c Hin).
Qed.

(* a buffer in use by a request is that request's req.Rc and holds nothing or bytes packed for it *)
Theorem buffer_exclusive : forall s i b r,
  reach fixed_cfg s -> nth_error (bufs s) i = Some b ->
  (b_state b = BHeld r \/ b_state b = BQueued r \/ b_state b = BSending r) ->
  alook (rc s) r = Some i /\ (b_content b = None \/ exists v, b_content b = Some (r, v)).
Proof.
  intros s i b r Hr Hn Hu. exact (inv_excl s (inv_reach s Hr) i b r Hn Hu).
Qed.

(* conn.rchan holds free buffers only, each at most once *)
Theorem pool_is_free : forall s i,
  reach fixed_cfg s -> In i (pool s) -> exists b, nth_error (bufs s) i = Some b /\ b_state b = BFree.
Proof.
  intros s i Hr Hin. exact (inv_pool s (inv_reach s Hr) i Hin).
Qed.

Theorem pool_nodup : forall s, reach fixed_cfg s -> NoDup (pool s).
Proof.
  intros s Hr. exact (inv_nodup s (inv_reach s Hr)).
Qed.

(* with the responded() test and the pack as two critical sections ([current_cfg]: RespondR* calls
   responded() and packs after that has released the request's lock; packReply in srv_respond.go
   holds the lock over both, which is [fixed_cfg]) a delayed second answer writes into a buffer
   that meanwhile belongs to another request *)
Theorem separate_test_and_pack_refuted : exists ls s r r' v,
  run current_cfg init ls = Some s /\ In (r, Some (r', v)) (wire s) /\ r <> r'.
Proof.
  exists [LTakeFresh 0; LGuard 0; LGuard 0; LPack 0 1; LRespond 0; LDequeue 0; LWrite 0; LRecycle 0;
          LTakePool 1; LGuard 1; LPack 1 5; LPack 0 2; LRespond 1; LDequeue 1; LWrite 1].
  eexists. exists 1, 0, 2. split; [vm_compute; reflexivity|].
  split; [cbn [wire]; right; left; reflexivity|discriminate].
Qed.

(* recycling the buffer before the Write (seeded change C03a) is refuted as well *)
Theorem early_recycle_refuted : exists ls s r r' v,
  run early_recycle_cfg init ls = Some s /\ In (r, Some (r', v)) (wire s) /\ r <> r'.
Proof.
  exists [LTakeFresh 0; LGuardPack 0 1; LRespond 0; LDequeue 0; LRecycle 0; LTakePool 1;
          LGuardPack 1 7; LWrite 0].
  eexists. exists 0, 1, 7. split; [vm_compute; reflexivity|].
  split; [cbn [wire]; left; reflexivity|discriminate].
Qed.

(* non-vacuity: two requests through one recycled buffer, the first answered twice *)
Example fixed_run : exists s,
  run fixed_cfg init [LTakeFresh 0; LGuardPack 0 1; LGuardPack 0 2; LRespond 0; LDequeue 0; LWrite 0; LRecycle 0;
                      LTakePool 1; LGuardPack 1 7; LRespond 1; LDequeue 1; LWrite 1; LWrite 1; LRecycle 1] = Some s
  /\ wire s = [(0, Some (0, 2)); (1, Some (1, 7)); (1, Some (1, 7))].
Proof.
  eexists. split; [vm_compute; reflexivity|reflexivity].
Qed.

Print Assumptions wire_bytes_belong_to_request.
Print Assumptions buffer_exclusive.
Print Assumptions pool_is_free.
Print Assumptions pool_nodup.
Print Assumptions separate_test_and_pack_refuted.
Print Assumptions early_recycle_refuted.
Print Assumptions fixed_run.
