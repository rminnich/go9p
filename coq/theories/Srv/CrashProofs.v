(* Every crash site of the request path is safe for every request in every reachable state. *)
From Coq Require Import NArith ZArith List Bool PeanoNat Lia.
From V9 Require Import Lib.GoSem Lib.Bytes Lib.ListFacts Gen.Consts Codec.Msg Codec.PackProofs Srv.Seq Srv.SeqSpec Srv.SeqLemmas Srv.SeqProofs Srv.Crash.
Import ListNotations.
Local Open Scope N_scope.

(* in every state of the model, reachable or not *)
Theorem site_fids_ok : forall cfg c t sc, site_fids cfg c t sc = true.
Proof.
  intros cfg c t sc. destruct c as [ms du ft]. unfold site_fids.
  destruct t; pre_cases; bool_norm; eqb_norm; try reflexivity.
  all: unfold present; cbn [takes_fid tfid r_fid r_afid r_newfid c_fids with_fids].
  all: eval_entries; decide_keys; use_fget; try destruct (has_bit _ c_QTDIR); reflexivity.
Qed.

Theorem site_refused_early_ok : forall cfg c t sc, site_refused_early cfg c t sc = true.
Proof.
  intros cfg c t sc. unfold site_refused_early.
  destruct (takes_fid t) eqn:TF; [|destruct (process_pre cfg c t sc) as [[[? ?] ?] ?]; reflexivity].
  destruct ((tfid t =? c_NOFID) || negb (is_valid c (tfid t))) eqn:E.
  - rewrite (pre_unknown_fid _ _ _ _ TF E). reflexivity.
  - destruct (process_pre cfg c t sc) as [[[? ?] ?] ?]. reflexivity.
Qed.

Theorem site_reply_ok : forall cfg c t sc, CInv cfg c -> site_reply cfg c t sc = true.
Proof.
  intros cfg c t sc HC. unfold site_reply.
  destruct (seq_step cfg c t sc) as [[c' r] ev] eqn:H.
  pose proof (no_reply_exceeds_msize _ _ _ _ _ _ _ HC H) as UB.
  destruct HC as [_ [M1 _]]. unfold c_IOHDRSZ in M1.
  rewrite len_spec_encode in *.
  rewrite !andb_true_iff, !N.leb_le. lia.
Qed.

Theorem sites_ok_step : forall cfg c t sc, CInv cfg c -> sites_ok cfg c t sc = true.
Proof.
  intros cfg c t sc HC. unfold sites_ok.
  rewrite site_fids_ok, site_refused_early_ok, site_reply_ok by exact HC. reflexivity.
Qed.

(* any history from any reachable state: unbounded length, any messages (including R-messages
   and unknown types sent as requests), any fid numbers, any implementation answers *)
Theorem run_sites_ok_all : forall cfg h c, CInv cfg c -> run_sites_ok cfg c h = true.
Proof.
  intros cfg h. induction h as [|[t sc] rest IH]; intros c HC; cbn [run_sites_ok].
  - reflexivity.
  - rewrite sites_ok_step by exact HC. cbn [andb].
    destruct (seq_step cfg c t sc) as [[c1 r] ev] eqn:H.
    apply IH. exact (cinv_step _ _ _ _ _ _ _ HC H).
Qed.

Corollary run_sites_ok_from_start : forall msize dotu auth h,
  msize <= u32max ->
  run_sites_ok (start_cfg msize dotu auth) (conn_init (start_cfg msize dotu auth)) h = true.
Proof.
  intros msize dotu auth h H. apply run_sites_ok_all. apply cinv_init. exact H.
Qed.

(* Tread / Twrite with count 2^32-16: the guard tc.Count > msize-IOHDRSZ is exact in uint32 arithmetic *)
Theorem huge_count_refused : forall msize,
  c_IOHDRSZ <= msize -> msize <= u32max -> count_too_large msize 4294967280 = true.
Proof.
  intros msize H1 H2. rewrite count_guard_exact by assumption.
  unfold c_IOHDRSZ, u32max in *. apply negb_true_iff, N.leb_gt. lia.
Qed.

Print Assumptions run_sites_ok_all.
Print Assumptions run_sites_ok_from_start.
