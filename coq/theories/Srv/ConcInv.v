(* Lists, accessors and well-formedness for the request life-cycle LTS (Srv/Conc.v), and its step function as a relation. *)
From Coq Require Import NArith List Bool PeanoNat Lia.
From V9 Require Import Lib.GoSem Lib.ListFacts Gen.Consts Srv.Conc.
Import ListNotations.

Lemma nth_error_upd_other : forall A (l : list A) i x j,
  i <> j -> nth_error (upd l i x) j = nth_error l j.
Proof. intros. apply ListFacts.nth_error_upd_other. auto. Qed.

Lemma nth_error_app_l : forall A (l l' : list A) i x, nth_error l i = Some x -> nth_error (l ++ l') i = Some x.
Proof. intros. rewrite nth_error_app1; auto. eapply nth_error_lt; eauto. Qed.

Lemma nth_error_ge : forall A (l : list A) i, nth_error l i = None -> length l <= i.
Proof. intros. apply nth_error_None. auto. Qed.

Lemma In_upd_nth : forall A (l : list A) i x y,
  In y (upd l i x) -> (y = x /\ i < length l) \/ (exists j, j <> i /\ nth_error l j = Some y).
Proof.
  intros. apply In_nth_error in H. destruct H as [j H].
  rewrite nth_error_upd in H. destruct (i =? j) eqn:E.
  - apply Nat.eqb_eq in E. subst. destruct (nth_error l j) eqn:E2; [|discriminate].
    inversion H. left. split; auto. eapply nth_error_lt; eauto.
  - apply Nat.eqb_neq in E. right. exists j. auto.
Qed.

Lemma filter_len_upd : forall A (p : A -> bool) (l : list A) i x y,
  nth_error l i = Some y ->
  length (filter p (upd l i x)) + (if p y then 1 else 0) =
  length (filter p l) + (if p x then 1 else 0).
Proof.
  induction l; intros.
  - destruct i; discriminate.
  - destruct i; simpl in *.
    + inversion H; subst. destruct (p x), (p y); simpl; lia.
    + specialize (IHl _ x _ H). destruct (p a); simpl; lia.
Qed.

Lemma filter_len_snoc : forall A (p : A -> bool) (l : list A) x,
  length (filter p (l ++ [x])) = length (filter p l) + (if p x then 1 else 0).
Proof.
  intros. rewrite filter_app, app_length. simpl. destruct (p x); reflexivity.
Qed.

Lemma filter_none : forall A (p : A -> bool) l, (forall x, In x l -> p x = false) -> length (filter p l) = 0.
Proof.
  induction l; simpl; intros; auto. rewrite (H a) by auto. apply IHl. auto.
Qed.

Lemma filter_len_zero : forall A (p : A -> bool) l, length (filter p l) = 0 -> forall x, In x l -> p x = false.
Proof.
  induction l; simpl; intros; [contradiction|].
  destruct (p a) eqn:E; simpl in H; [lia|]. destruct H0; subst; auto.
Qed.

Lemma getq_setq : forall s i q j,
  getq (setq s i q) j =
  if i =? j then match getq s i with Some _ => Some q | None => None end else getq s j.
Proof. intros. unfold getq, setq. simpl. apply nth_error_upd. Qed.

Lemma getq_setq_same : forall s i q q0, getq s i = Some q0 -> getq (setq s i q) i = Some q.
Proof. intros. rewrite getq_setq, Nat.eqb_refl, H. reflexivity. Qed.

Lemma getq_setq_other : forall s i q j, i <> j -> getq (setq s i q) j = getq s j.
Proof. intros. rewrite getq_setq. apply Nat.eqb_neq in H. rewrite H. reflexivity. Qed.

Lemma getq_setf : forall s i f j, getq (setf s i f) j = getq s j.
Proof. reflexivity. Qed.
Lemma getq_addf : forall s f j, getq (addf s f) j = getq s j.
Proof. reflexivity. Qed.

Lemma getq_lt : forall s i q, getq s i = Some q -> i < length (R s).
Proof. intros. eapply nth_error_lt; eauto. Qed.

Lemma getq_some : forall s i, i < length (R s) -> exists q, getq s i = Some q.
Proof.
  intros. unfold getq. destruct (nth_error (R s) i) eqn:E; eauto.
  apply nth_error_None in E. lia.
Qed.

Lemma alookup_In : forall l k v, alookup l k = Some v -> In (k, v) l.
Proof.
  induction l as [|[k' v'] l]; simpl; intros; [discriminate|].
  destruct (N.eqb k' k) eqn:E.
  - apply N.eqb_eq in E. inversion H; subst. auto.
  - auto.
Qed.

Lemma aremove_In : forall l k0 k v, In (k, v) (aremove l k0) -> k <> k0 /\ In (k, v) l.
Proof.
  induction l as [|[k' v'] l]; simpl; intros; [contradiction|].
  destruct (N.eqb k' k0) eqn:E.
  - apply IHl in H. tauto.
  - destruct H as [H | H].
    + inversion H; subst. apply N.eqb_neq in E. auto.
    + apply IHl in H. tauto.
Qed.

Lemma with_flush_idem : forall q, with_flush (with_flush q true) true = with_flush q true.
Proof. reflexivity. Qed.

Lemma mark_flushed_length : forall ids rs, length (mark_flushed rs ids) = length rs.
Proof.
  unfold mark_flushed. induction ids; simpl; intros; auto.
  rewrite IHids. destruct (nth_error rs a); auto. apply upd_length.
Qed.

Lemma mark_flushed_nth : forall ids rs i,
  nth_error (mark_flushed rs ids) i =
  match nth_error rs i with
  | Some q => Some (if existsb (Nat.eqb i) ids then with_flush q true else q)
  | None => None end.
Proof.
  unfold mark_flushed. induction ids; simpl; intros.
  - destruct (nth_error rs i); reflexivity.
  - rewrite IHids. destruct (nth_error rs a) eqn:E.
    + rewrite nth_error_upd. destruct (a =? i) eqn:E2.
      * apply Nat.eqb_eq in E2. subst. rewrite E, Nat.eqb_refl. simpl.
        destruct (existsb (Nat.eqb i) ids); reflexivity.
      * rewrite Nat.eqb_sym, E2. simpl. reflexivity.
    + destruct (i =? a) eqn:E2.
      * apply Nat.eqb_eq in E2. subst. rewrite E. reflexivity.
      * simpl. reflexivity.
Qed.

Lemma mark_flushed_cases : forall ids rs i q',
  nth_error (mark_flushed rs ids) i = Some q' ->
  exists q, nth_error rs i = Some q /\ (q' = q \/ q' = with_flush q true).
Proof.
  intros. rewrite mark_flushed_nth in H. destruct (nth_error rs i); [|discriminate].
  inversion H. exists r. split; auto. destruct (existsb (Nat.eqb i) ids); auto.
Qed.

Lemma chain_In : forall fuel rs o x,
  In x (chain fuel rs o) ->
  o = Some x \/ exists i q, nth_error rs i = Some q /\ q_flushnext q = Some x.
Proof.
  induction fuel; simpl; intros; [contradiction|].
  destruct o as [i|]; [|contradiction].
  destruct (nth_error rs i) eqn:E.
  - destruct H; [subst; auto|]. apply IHfuel in H. destruct H; [|auto].
    right. eauto.
  - destruct H; [subst; auto|contradiction].
Qed.

(* H : step c s l = Some s'.  One goal for each path through [step] that returns a state. *)
Ltac step_cases H :=
  unfold step in H;
  match type of H with (match ?l with _ => _ end) = _ => destruct l end;
  cbv beta iota zeta in H;
  repeat match type of H with
         | (match ?x with _ => _ end) = Some _ => destruct x eqn:?
         | (if ?x then _ else _) = Some _ => destruct x eqn:?
         end;
  try discriminate H;
  inversion H; subst; clear H.

Definition pc_target (p : wpc) : option nat :=
  match p with WF2 t | WF3 t _ | WInFlushOp t => Some t | _ => None end.

Definition rq_wf (n : nat) (q : rq) : Prop :=
  (forall x, q_flushreq q = Some x -> x < n) /\
  (forall x, q_prev q = Some x -> x < n) /\
  (forall x, q_next q = Some x -> x < n) /\
  (forall x, q_target q = Some x -> x < n) /\
  (forall x, q_after q = Some x -> x < n) /\
  (forall x, pc_target (q_pc q) = Some x -> x < n) /\
  (forall x, q_flushnext q = Some x -> x < n).

Definition fr_wf (n : nat) (f : frame) : Prop :=
  f_req f < n /\ (forall x, f_cur f = Some x -> x < n) /\ (f_pc f = R7 -> f_cur f <> None).

Record WF (s : st) : Prop := {
  wf_R : forall r q, getq s r = Some q -> rq_wf (length (R s)) q;
  wf_reqs : forall k v, In (k, v) (reqs s) -> v < length (R s);
  wf_outq : forall r, In r (outq s) -> r < length (R s);
  wf_F : forall f, In f (F s) -> fr_wf (length (R s)) f;
  wf_closed : closed s = true <-> recvr s = RvClosed }.

Lemma rq_wf_mono : forall n m q, n <= m -> rq_wf n q -> rq_wf m q.
Proof.
  unfold rq_wf. intros n m q L (A & B & C & D & E & G & I).
  repeat split; intros x Hx;
    [apply A in Hx|apply B in Hx|apply C in Hx|apply D in Hx|apply E in Hx|apply G in Hx|apply I in Hx]; lia.
Qed.

(* The successor states of [step] are written with the operations below, so that [getq] of each
   has a closed form: arrive_R_nth, getq_vmark, getq_modq, getq_r2_link. *)
Definition fresh_rq (tag : N) (k : kind) (newest : option nat) : rq :=
  mkRq tag k false false false false None None newest None
       (match newest with None => WSpawned | Some _ => WWait end) false false [] None newest None.

Definition arrive_R (rs : list rq) (tag : N) (k : kind) (newest : option nat) : list rq :=
  match newest with
  | Some o => match nth_error (rs ++ [fresh_rq tag k newest]) o with
              | Some qo => upd (rs ++ [fresh_rq tag k newest]) o
                               (with_links qo (q_flushreq qo) (Some (length rs)) (q_next qo))
              | None => rs ++ [fresh_rq tag k newest] end
  | None => rs ++ [fresh_rq tag k newest] end.

Definition arrive_rv (s : st) (tag : N) (k : kind) : rstat :=
  match k, alookup (reqs s) tag with KVersion, None => RvVersion (length (R s)) | _, _ => RvOpen end.

Definition version_ids (s : st) (r : nat) : list nat :=
  filter (fun i => negb (Nat.eqb i r))
    (flat_map (fun kv => if N.eqb (fst kv) c_NOTAG then []
                         else group (length (R s)) (R s) (Some (snd kv))) (reqs s)).

Definition vmark (s : st) (r : nat) : st :=
  mkSt (reqs s) (mark_flushed (R s) (version_ids s r)) (F s) (outq s) (wire s) (recvr s) (closed s) (posted s).

Definition tail_rv (rv : rstat) (r : nat) : rstat :=
  match rv with RvVersion r' => if r' =? r then RvOpen else RvVersion r' | x => x end.

Definition modq (s : st) (i : nat) (g : rq -> rq) : st :=
  match getq s i with Some q => setq s i (g q) | None => s end.

Definition with_flushreq (q : rq) (o : option nat) : rq := with_links q o (q_prev q) (q_next q).

Definition r2_link (s : st) (q qn : rq) (nx : nat) : st :=
  let s1 := setq s nx (with_links qn (q_flushreq qn) (q_prev qn) None) in
  match q_flushreq q with
  | None => s1
  | Some fr =>
    match q_flushreq qn with
    | None => setq s1 nx (with_links qn (Some fr) (q_prev qn) None)
    | Some h =>
      modq s1 (chain_last (length (R s)) (R s) h) (fun qp => with_flushnext qp (Some fr))
    end
  end.

Definition spawn_next (s : st) (o : option nat) : st :=
  match o with Some nx => modq s nx (fun qn => with_pc qn WSpawned) | None => s end.

(* where the flusher goes after chaining itself: a target that is itself a Tflush is left alone *)
Definition f1_pc (qt : rq) (t : nat) : wpc :=
  match q_kind qt with KFlush _ => WTail | _ => WF2 t end.

Lemma f1_pc_cases : forall qt t,
  (f1_pc qt t = WTail /\ exists o, q_kind qt = KFlush o) \/
  (f1_pc qt t = WF2 t /\ (q_kind qt = KOp \/ q_kind qt = KVersion)).
Proof. intros. unfold f1_pc. destruct (q_kind qt); eauto. Qed.

Lemma f1_pc_target : forall qt t x, pc_target (f1_pc qt t) = Some x -> x = t.
Proof. intros qt t x. unfold f1_pc. destruct (q_kind qt); simpl; congruence. Qed.

Lemma f1_pc_not : forall qt t,
  f1_pc qt t <> WWait /\ f1_pc qt t <> WSpawned /\ f1_pc qt t <> WProc /\ f1_pc qt t <> WInOp /\
  f1_pc qt t <> WDone /\ (forall x b, f1_pc qt t <> WF3 x b) /\ (forall x, f1_pc qt t <> WInFlushOp x).
Proof. intros. unfold f1_pc. destruct (q_kind qt); repeat split; intros; discriminate. Qed.

Definition f1_q (q qt : rq) (t : nat) : rq :=
  with_pc (with_target (with_flushnext (with_buf q v_rflush) (q_flushreq qt)) t) (f1_pc qt t).

Definition tail_q (q : rq) : rq :=
  with_pc (with_status q (q_flush q) false (q_resp q) (if q_resp q then q_saved q else true)) WDone.

Definition fr_set (f : frame) (pc : fpc) : frame :=
  mkFrame (f_req f) pc (f_sflush f) (f_next f) (f_cur f) (f_won f).

Inductive Step (c : cfg) (s : st) : label -> st -> Prop :=
| S_Arrive tag k : recvr s = RvOpen ->
    Step c s (LArrive tag k)
      (mkSt (aset (reqs s) tag (length (R s))) (arrive_R (R s) tag k (alookup (reqs s) tag))
            (F s) (outq s) (wire s) (arrive_rv s tag k) (closed s) (posted s))
| S_WStartF r q : getq s r = Some q -> q_pc q = WSpawned -> q_flush q = true ->
    Step c s (LWStart r) (addf (setq s r (with_pc q WDone)) (new_frame r))
| S_WStart r q : getq s r = Some q -> q_pc q = WSpawned -> q_flush q = false ->
    Step c s (LWStart r) (setq s r (with_pc (with_status q false true (q_resp q) (q_saved q)) WProc))
| S_Reject r v q : getq s r = Some q -> q_pc q = WProc -> q_kind q = KOp ->
    Step c s (LReject r v) (addf (setq s r (with_pc (with_buf q v) WTail)) (new_frame r))
| S_OpCall r q : getq s r = Some q -> q_pc q = WProc -> q_kind q = KOp ->
    Step c s (LOpCall r) (setq s r (with_pc (with_called q) WInOp))
| S_OpReturn r q : getq s r = Some q -> q_pc q = WInOp ->
    Step c s (LOpReturn r) (setq s r (with_pc q WTail))
| S_Answer r v q : getq s r = Some q -> q_called q = true ->
    Step c s (LAnswer r v) (addf (setq s r (with_buf q v)) (new_frame r))
| S_F1 r q old t qt : getq s r = Some q -> q_pc q = WProc -> q_kind q = KFlush old ->
    alookup (reqs s) old = Some t -> getq s t = Some qt ->
    Step c s (LF1 r) (modq (setq s r (f1_q q qt t)) t (fun x => with_flushreq x (Some r)))
| S_F1None r q old : getq s r = Some q -> q_pc q = WProc -> q_kind q = KFlush old ->
    alookup (reqs s) old = None ->
    Step c s (LF1 r) (addf (setq s r (with_pc (with_buf q v_rflush) WTail)) (new_frame r))
| S_F2 r q t qt : getq s r = Some q -> q_pc q = WF2 t -> getq s t = Some qt ->
    Step c s (LF2 r)
      (modq (if q_work qt || q_saved qt then s else setq s t (with_flush qt true)) r
            (fun x => with_pc x (WF3 t (q_work qt || q_saved qt))))
| S_F3resp r q t : getq s r = Some q -> q_pc q = WF3 t false ->
    Step c s (LF3 r) (addf (setq s r (with_pc q WTail)) (new_frame t))
| S_F3op r q t qt : getq s r = Some q -> q_pc q = WF3 t true -> has_flushop c = true -> getq s t = Some qt ->
    Step c s (LF3 r) (modq (setq s t (with_flushop qt)) r (fun x => with_pc x (WInFlushOp t)))
| S_F3none r q t : getq s r = Some q -> q_pc q = WF3 t true -> has_flushop c = false ->
    Step c s (LF3 r) (setq s r (with_pc q WTail))
| S_FlushOpReturn r q t : getq s r = Some q -> q_pc q = WInFlushOp t ->
    Step c s (LFlushOpReturn r) (setq s r (with_pc q WTail))
| S_ReqFlush t qt : getq s t = Some qt -> q_flushop qt = true -> q_called qt = true ->
    Step c s (LReqFlush t) (addf (setq s t (with_flush qt true)) (new_frame t))
| S_V1 r q : getq s r = Some q -> q_pc q = WProc -> q_kind q = KVersion ->
    Step c s (LV1 r) (addf (setq (vmark s r) r (with_pc (with_buf q v_rversion) WTail)) (new_frame r))
| S_WTail r q : getq s r = Some q -> q_pc q = WTail ->
    Step c s (LWTail r)
      (mkSt (reqs s) (upd (R s) r (tail_q q)) (F s) (outq s) (wire s) (tail_rv (recvr s) r) (closed s) (posted s))
| S_R1 fi f q : nth_error (F s) fi = Some f -> getq s (f_req f) = Some q -> f_pc f = R1 ->
    Step c s (LR fi)
      (setf (setq s (f_req f) (with_status q (q_flush q) false true (q_saved q))) fi
            (mkFrame (f_req f) (if q_resp q then RDone else R3) (q_flush q) None None (negb (q_resp q))))
| S_R2link fi f q nx qn : nth_error (F s) fi = Some f -> getq s (f_req f) = Some q -> f_pc f = R2 ->
    q_prev q = Some nx -> getq s nx = Some qn ->
    Step c s (LR fi)
      (setf (r2_link s q qn nx) fi
            (mkFrame (f_req f) R5 (f_sflush f) (Some nx) None (f_won f)))
| S_R2last fi f q : nth_error (F s) fi = Some f -> getq s (f_req f) = Some q -> f_pc f = R2 ->
    q_prev q = None ->
    Step c s (LR fi)
      (setf (mkSt (aremove (reqs s) (q_tag q)) (R s) (F s) (outq s) (wire s) (recvr s) (closed s) (posted s)) fi
            (mkFrame (f_req f) R5 (f_sflush f) None (q_flushreq q) (f_won f)))
| S_R3 fi f q : nth_error (F s) fi = Some f -> getq s (f_req f) = Some q -> f_pc f = R3 ->
    Step c s (LR fi)
      (setf (mkSt (reqs s) (R s) (F s) (outq s) (wire s) (recvr s) (closed s) (posted s ++ [f_req f])) fi
            (fr_set f R4))
| S_R4skip fi f q : nth_error (F s) fi = Some f -> getq s (f_req f) = Some q -> f_pc f = R4 ->
    f_sflush f = true \/ closed s = true ->
    Step c s (LR fi) (setf s fi (fr_set f R2))
| S_R4send fi f q : nth_error (F s) fi = Some f -> getq s (f_req f) = Some q -> f_pc f = R4 ->
    f_sflush f = false -> closed s = false -> room c s = true ->
    Step c s (LR fi)
      (setf (mkSt (reqs s) (R s) (F s) (outq s ++ [f_req f]) (wire s) (recvr s) (closed s) (posted s)) fi
            (fr_set f R2))
| S_R5 fi f q : nth_error (F s) fi = Some f -> getq s (f_req f) = Some q -> f_pc f = R5 ->
    Step c s (LR fi) (setf (spawn_next s (f_next f)) fi (fr_set f R6))
| S_R6done fi f q : nth_error (F s) fi = Some f -> getq s (f_req f) = Some q -> f_pc f = R6 ->
    f_cur f = None ->
    Step c s (LR fi) (setf s fi (mkFrame (f_req f) RDone (f_sflush f) (f_next f) None (f_won f)))
| S_R6next fi f q x : nth_error (F s) fi = Some f -> getq s (f_req f) = Some q -> f_pc f = R6 ->
    f_cur f = Some x ->
    Step c s (LR fi)
      (addf (setf s fi (mkFrame (f_req f) R7 (f_sflush f) (f_next f) (Some x) (f_won f))) (new_frame x))
| S_R7 fi f q x qx : nth_error (F s) fi = Some f -> getq s (f_req f) = Some q -> f_pc f = R7 ->
    f_cur f = Some x -> getq s x = Some qx ->
    Step c s (LR fi) (setf s fi (mkFrame (f_req f) R6 (f_sflush f) (f_next f) (q_flushnext qx) (f_won f)))
| S_Send r rest q : closed s = false -> outq s = r :: rest -> getq s r = Some q ->
    Step c s LSend
      (mkSt (reqs s) (R s) (F s) rest (wire s ++ [(r, q_tag q, q_buf q)]) (recvr s) (closed s) (posted s))
| S_Disconnect : recvr s <> RvClosed ->
    Step c s LDisconnect (mkSt (reqs s) (R s) (F s) (outq s) (wire s) RvClosed true (posted s)).

Lemma getq_vmark : forall s r j,
  getq (vmark s r) j =
  match getq s j with
  | Some q => Some (if existsb (Nat.eqb j) (version_ids s r) then with_flush q true else q)
  | None => None end.
Proof. intros. unfold getq, vmark. simpl. apply mark_flushed_nth. Qed.

(* the Tversion itself is not marked *)
Lemma getq_vmark_self : forall s r, getq (vmark s r) r = getq s r.
Proof.
  intros. rewrite getq_vmark. destruct (getq s r); auto.
  replace (existsb (Nat.eqb r) (version_ids s r)) with false; auto.
  unfold version_ids. induction (flat_map _ _) as [|a l IH]; simpl; auto.
  destruct (a =? r) eqn:E; simpl; auto. rewrite Nat.eqb_sym, E. auto.
Qed.

Lemma step_Step : forall c s l s', step c s l = Some s' -> Step c s l s'.
Proof.
  intros c s l s' H. step_cases H.
  all: try solve [econstructor; eauto].
  all: try (apply andb_prop in Heqb; destruct Heqb).
  all: try match goal with X : getq (mkSt _ (mark_flushed _ _) _ _ _ _ _ _) ?r = Some ?q1 |- _ =>
         change (getq (vmark s r) r = Some q1) in X; rewrite getq_vmark_self in X end.
  all: match goal with |- Step _ _ ?l ?x => assert (E : exists y, Step c s l y /\ y = x);
         [eexists; split; [solve [econstructor; eauto; congruence] |] | destruct E as (y & E & <-); exact E] end.
  all: try solve [unfold modq, f1_q, f1_pc; match goal with X : getq _ _ = Some _ |- _ => rewrite X end; reflexivity].
  all: try match goal with X : getq ?s0 ?r = Some ?a, Y : getq ?s0 ?r = Some ?b |- _ =>
         assert (a = b) by congruence; subst a end.
  all: unfold fr_set, tail_rv, tail_q; rewrite ?Heqb, ?Heqb0;
    try match goal with |- context [match recvr ?s0 with _ => _ end] => destruct (recvr s0) end; reflexivity.
Qed.

Definition opt_is (o : option nat) (j : nat) : bool :=
  match o with Some x => x =? j | None => false end.

Lemma opt_is_true : forall o j, opt_is o j = true <-> o = Some j.
Proof.
  destruct o; simpl; intros; split; intros; try discriminate.
  - apply Nat.eqb_eq in H. subst. auto.
  - inversion H. apply Nat.eqb_refl.
Qed.

Lemma arrive_R_length : forall rs tag k nw, length (arrive_R rs tag k nw) = S (length rs).
Proof.
  intros. unfold arrive_R. destruct nw.
  - destruct (nth_error _ n); rewrite ?upd_length, app_length; simpl; lia.
  - rewrite app_length. simpl. lia.
Qed.

Lemma arrive_R_nth : forall rs tag k nw j,
  (forall o, nw = Some o -> o < length rs) ->
  nth_error (arrive_R rs tag k nw) j =
  if j =? length rs then Some (fresh_rq tag k nw)
  else match nth_error rs j with
       | Some q => Some (if opt_is nw j then with_links q (q_flushreq q) (Some (length rs)) (q_next q) else q)
       | None => None end.
Proof.
  intros rs tag k nw j H. unfold arrive_R. destruct nw as [o|]; simpl.
  - specialize (H o eq_refl). rewrite nth_error_app1 by auto.
    destruct (nth_error rs o) as [qo|] eqn:E; [|apply nth_error_None in E; lia].
    rewrite nth_error_upd, nth_error_app1, E, nth_error_snoc by auto.
    destruct (Nat.eqb_spec o j) as [<- | Ne].
    + rewrite E. destruct (Nat.eqb_spec o (length rs)); [lia | reflexivity].
    + destruct (j =? length rs); auto. destruct (nth_error rs j); reflexivity.
  - rewrite nth_error_snoc. destruct (j =? length rs); auto. destruct (nth_error rs j); reflexivity.
Qed.

Lemma getq_modq : forall s i g j,
  getq (modq s i g) j = match getq s j with Some q => Some (if i =? j then g q else q) | None => None end.
Proof.
  intros. unfold modq. destruct (getq s i) eqn:E.
  - rewrite getq_setq, E. destruct (Nat.eqb_spec i j) as [<- | Ne]; [rewrite E|destruct (getq s j)]; reflexivity.
  - destruct (Nat.eqb_spec i j) as [<- | Ne]; [rewrite E|destruct (getq s j)]; reflexivity.
Qed.

Definition lnk (q : rq) (a b c : option nat) : rq :=
  with_flushnext (with_links q a (q_prev q) b) c.

(* R2 with a newer request nx of the same tag: nx loses its link to the older request q and
   inherits the flush requests waiting for q, at the end of its own list *)
Definition relink (s : st) (q qn : rq) (nx j : nat) (q0 : rq) : rq :=
  lnk q0
    (if nx =? j then match q_flushreq qn with None => q_flushreq q | h => h end else q_flushreq q0)
    (if nx =? j then None else q_next q0)
    (match q_flushreq q, q_flushreq qn with
     | Some fr, Some h => if chain_last (length (R s)) (R s) h =? j then Some fr else q_flushnext q0
     | _, _ => q_flushnext q0 end).

Lemma getq_r2_link : forall s q qn nx j, getq s nx = Some qn ->
  getq (r2_link s q qn nx) j =
  match getq s j with Some q0 => Some (relink s q qn nx j q0) | None => None end.
Proof.
  intros s q qn nx j Hn. unfold r2_link, relink, lnk.
  destruct (Nat.eqb_spec nx j) as [<- | Ne].
  - rewrite Hn. destruct (q_flushreq q) as [fr|]; [destruct (q_flushreq qn) as [h|] eqn:Eh|].
    + rewrite getq_modq, (getq_setq_same _ _ _ _ Hn).
      destruct (_ =? nx); [reflexivity | destruct qn; simpl in *; subst; reflexivity].
    + rewrite (getq_setq_same _ nx _ (with_links qn None (q_prev qn) None)) by (eapply getq_setq_same; eauto).
      destruct qn; simpl in *; subst; reflexivity.
    + rewrite (getq_setq_same _ _ _ _ Hn). destruct qn as [? ? ? ? ? ? [|] ? ? ? ? ? ? ? ? ? ?]; reflexivity.
  - destruct (q_flushreq q) as [fr|]; [destruct (q_flushreq qn) as [h|]|];
      rewrite ?getq_modq, !getq_setq_other by auto; destruct (getq s j) as [q0|]; auto; f_equal;
      try destruct (_ =? j); destruct q0; reflexivity.
Qed.
