(* Well-formedness of reachable states; the steps that are always enabled; induction on [reach]. *)
From Coq Require Import List Bool PeanoNat Lia.
From V9 Require Import Lib.GoSem Gen.Consts Srv.Conc Srv.ConcInv Srv.ConcStep.
Import ListNotations.

Lemma WF_init : WF init.
Proof.
  constructor; simpl; intros; try contradiction.
  - destruct r; discriminate.
  - split; discriminate.
Qed.

(* WR : wf_R s.  Adds rq_wf for every request that is named in the context. *)
Ltac use_WR WR :=
  repeat match goal with
         | H : getq ?s ?r = Some ?q |- _ =>
           lazymatch goal with
           | _ : rq_wf _ q |- _ => fail
           | _ => pose proof (WR _ _ H) end
         end.

(* adds r < length (R s) for every request r that is named in the context *)
Ltac use_lt :=
  repeat match goal with
         | H : getq ?s ?r = Some ?q |- _ =>
           lazymatch goal with
           | _ : r < length (R s) |- _ => fail
           | _ => pose proof (getq_lt _ _ _ H) end
         end.

(* Some a = Some b in the context: a and b are identified *)
Ltac inv_some :=
  repeat match goal with H : Some _ = Some _ |- _ => inversion H; subst; clear H end.

(* rq_wf of a request written with the with_* operations, from rq_wf of its parts in the context *)
Ltac wf_rq := unfold rq_wf, f1_q, tail_q, lnk, with_flushreq in *; simpl in *;
  intuition (try discriminate; inv_some;
             try match goal with H : pc_target (f1_pc _ _) = Some _ |- _ => apply f1_pc_target in H; subst end;
             eauto; try lia).

Lemma chain_last_lt : forall fuel rs i n,
  (forall j q x, nth_error rs j = Some q -> q_flushnext q = Some x -> x < n) ->
  i < n -> chain_last fuel rs i < n.
Proof.
  induction fuel; simpl; intros; auto.
  destruct (nth_error rs i) eqn:E; auto.
  destruct (q_flushnext r) eqn:E2; auto.
  apply IHfuel; eauto.
Qed.

Lemma fresh_wf : forall s tag k, WF s -> rq_wf (S (length (R s))) (fresh_rq tag k (alookup (reqs s) tag)).
Proof.
  intros s tag k W. unfold rq_wf, fresh_rq; simpl. repeat split; intros x Hx; try discriminate;
    try (apply alookup_In, (wf_reqs s W) in Hx; lia).
  destruct (alookup (reqs s) tag); discriminate.
Qed.

Lemma rq_wf_pc : forall n q p, rq_wf n q -> (forall x, pc_target p = Some x -> x < n) -> rq_wf n (with_pc q p).
Proof. intros n q p (A & B & C & D & E & G & I) Hp. repeat split; auto. Qed.

Lemma rq_wf_lnk : forall n q a b d, rq_wf n q ->
  (forall x, a = Some x -> x < n) -> (forall x, b = Some x -> x < n) -> (forall x, d = Some x -> x < n) ->
  rq_wf n (lnk q a b d).
Proof. intros n q a b d (A & B & C & D & E & G & I) Ha Hb Hd. repeat split; auto. Qed.

(* a request changed by a step stays well-formed; only an arrival needs the new bound *)
Lemma qstep_wf : forall c s l r q q' n, WF s -> getq s r = Some q -> qstep c s l r q q' ->
  length (R s) <= n -> (forall tag k, l = LArrive tag k -> length (R s) < n) -> rq_wf n q'.
Proof.
  intros c s l r q q' n W Hq Q Hn Ha. pose proof (wf_R s W) as WR.
  destruct Q.
  all: use_WR WR; use_lt.
  all: repeat match goal with H : rq_wf _ _ |- _ => apply (rq_wf_mono _ n) in H; [|exact Hn] end.
  all: try assumption.
  all: try solve [apply rq_wf_pc; [assumption | simpl; intros; discriminate]].
  all: try solve [wf_rq].
  - unfold rq_wf in *. rewrite Hpc in *. wf_rq.
  - unfold rq_wf in *. apply rq_wf_lnk; auto; intro x;
      [destruct (nx =? r); [destruct (q_flushreq qn) eqn:?|] | destruct (nx =? r)
      |destruct (q_flushreq q) eqn:?; [destruct (q_flushreq qn); [destruct (_ =? r)|]|]];
      intuition (try discriminate; eauto).
Qed.

Lemma fr_wf_mono : forall n m f, n <= m -> fr_wf n f -> fr_wf m f.
Proof.
  intros n m f L (A & B & C). split; [lia | split; auto]. intros x Hx. apply B in Hx. lia.
Qed.

Lemma fstep_wf : forall c s f f', WF s -> In f (F s) -> fstep c s f f' -> fr_wf (length (R s)) f'.
Proof.
  intros c s f f' W Hi St. destruct (wf_F s W f Hi) as (A & B & C).
  destruct St; unfold fr_wf, fr_set; simpl; repeat split; auto; try discriminate; try congruence.
  - destruct (q_resp q); discriminate.
  - destruct (wf_R s W _ _ Hfq) as (X & _). exact X.
  - intros y Hy. inversion Hy; subst. auto.
  - destruct (wf_R s W _ _ Hqx) as (_ & _ & _ & _ & _ & _ & X). exact X.
Qed.

Lemma starts_lt : forall c s l x, WF s -> starts c s l x -> x < length (R s).
Proof.
  intros c s l x W St. destruct St; eauto using getq_lt.
  - destruct (wf_R s W _ _ Ha) as (_ & _ & _ & _ & _ & X & _). apply X. rewrite Hpc. reflexivity.
  - apply (wf_F s W f (nth_error_In _ _ Hn)). auto.
Qed.

Lemma reqs_step : forall c s l s' k v, Step c s l s' -> In (k, v) (reqs s') ->
  In (k, v) (reqs s) \/ exists kd, l = LArrive k kd /\ v = length (R s).
Proof.
  intros c s l s' k v H Hi. globals_cases H; rewrite Erq in Hi; auto.
  - destruct Hi as [Hi | Hi]; [inversion Hi; subst; eauto | left; apply aremove_In in Hi; tauto].
  - left. apply aremove_In in Hi. tauto.
Qed.

Lemma WF_step : forall c s l s', WF s -> step c s l = Some s' -> WF s'.
Proof.
  intros c s l s' W H. apply step_Step in H. pose proof (step_length _ _ _ _ H) as L. constructor.
  - intros r q' Hg.
    destruct (step_getq _ _ _ _ W H _ _ Hg) as [(q & Hq & [-> | Q]) | (_ & tag & k & -> & -> & ->)].
    + eapply rq_wf_mono; [exact L | eapply wf_R; eauto].
    + eapply qstep_wf; eauto. intros tag k ->. rewrite (arrive_length _ _ _ _ _ H). lia.
    + rewrite (arrive_length _ _ _ _ _ H). apply fresh_wf. auto.
  - intros k v Hi. destruct (reqs_step _ _ _ _ _ _ H Hi) as [Hi0 | (kd & -> & ->)].
    + apply (wf_reqs s W) in Hi0. lia.
    + rewrite (arrive_length _ _ _ _ _ H). lia.
  - intros r Hi. destruct (outq_step _ _ _ _ _ H Hi) as [Ho | (fi & f & Hn & <- & _)].
    + apply (wf_outq s W) in Ho. lia.
    + destruct (wf_F s W f (nth_error_In _ _ Hn)). lia.
  - intros f' Hi. apply (fr_wf_mono (length (R s))); auto.
    destruct (step_frame _ _ _ _ _ H Hi) as [Ho | [(fi & f & _ & Hn & St) | (x & -> & St)]].
    + apply (wf_F s W). auto.
    + eapply fstep_wf; eauto using nth_error_In.
    + pose proof (starts_lt _ _ _ _ W St). repeat split; auto; discriminate.
  - pose proof (wf_closed s W) as Wcl. globals_cases H; rewrite Ecl, Erv; auto.
    + rewrite Hrv in Wcl. unfold arrive_rv. destruct k; [destruct (alookup (reqs s) tag)| |];
        split; intro X; try discriminate; apply Wcl in X; discriminate.
    + unfold tail_rv. destruct (recvr s) as [|n|]; auto. destruct (n =? r); auto.
      rewrite Wcl. split; discriminate.
    + tauto.
Qed.

Lemma reach_WF : forall c s, reach c s -> WF s.
Proof. induction 1; [apply WF_init | eapply WF_step; eauto]. Qed.

Lemma wf_getq_freq : forall s fi f, WF s -> nth_error (F s) fi = Some f ->
  exists q, getq s (f_req f) = Some q.
Proof.
  intros. apply getq_some. apply nth_error_In in H0. apply (wf_F s H) in H0. destruct H0. auto.
Qed.

Lemma target_some : forall s f qf t, WF s -> getq s f = Some qf -> q_target qf = Some t ->
  exists qt, getq s t = Some qt.
Proof.
  intros s f qf t W Hf Ht. apply getq_some. destruct (wf_R s W _ _ Hf) as (_ & _ & _ & X & _). auto.
Qed.

Lemma send_step : forall c s x rest, WF s -> closed s = false -> outq s = x :: rest ->
  exists qx, step c s LSend =
    Some (mkSt (reqs s) (R s) (F s) rest (wire s ++ [(x, q_tag qx, q_buf qx)]) (recvr s) (closed s) (posted s)).
Proof.
  intros c s x rest W Hc Ho. destruct (getq_some s x) as (qx & Hx); [apply (wf_outq s W); rewrite Ho; left; auto|].
  exists qx. unfold step. rewrite Hc, Ho, Hx. reflexivity.
Qed.

(* Respond blocks nowhere but at R4, the send on conn.reqout *)
Lemma LR_enabled : forall c s fi f,
  WF s -> nth_error (F s) fi = Some f -> f_pc f <> RDone ->
  (f_pc f = R4 -> f_sflush f = true \/ closed s = true \/ room c s = true) ->
  step c s (LR fi) <> None.
Proof.
  intros c s fi f W Hf Hpc H4.
  destruct (wf_getq_freq _ _ _ W Hf) as (q & Hq).
  pose proof (wf_F s W f (nth_error_In _ _ Hf)) as (Wa & Wb & Wc).
  unfold step. rewrite Hf, Hq. destruct (f_pc f) eqn:E; try discriminate; try congruence.
  - destruct (q_resp q); discriminate.
  - (* R2: the newer request of the tag is there *)
    destruct (q_prev q) eqn:E2; [|discriminate].
    pose proof (wf_R s W _ _ Hq) as (_ & Wp & _). apply Wp in E2.
    destruct (getq_some _ _ E2) as (qn & ->). discriminate.
  - destruct (f_sflush f); [discriminate|]. destruct (closed s); [discriminate|].
    destruct (room c s); [discriminate|]. destruct H4 as [H4|[H4|H4]]; auto; discriminate.
  - destruct (f_cur f); discriminate.
  - (* R7: the cursor is set and points to a request *)
    destruct (f_cur f) eqn:E2; [|exfalso; apply Wc; auto].
    specialize (Wb _ eq_refl). destruct (getq_some _ _ Wb) as (qx & ->). discriminate.
Qed.

(* C08: a worker that does not wait for the implementation can always take its next step *)
Lemma worker_step_enabled : forall c s r q,
  reach c s -> getq s r = Some q ->
  match q_pc q, q_kind q with
  | WSpawned, _ => step c s (LWStart r) <> None
  | WProc, KFlush _ => step c s (LF1 r) <> None
  | WProc, KVersion => step c s (LV1 r) <> None
  | WProc, KOp => step c s (LOpCall r) <> None /\ forall v, step c s (LReject r v) <> None
  | WF2 _, _ => step c s (LF2 r) <> None
  | WF3 _ _, _ => step c s (LF3 r) <> None
  | WTail, _ => step c s (LWTail r) <> None
  | _, _ => True
  end.
Proof.
  intros c s r q Rc Hq. pose proof (reach_WF c s Rc) as W.
  pose proof (wf_R s W _ _ Hq) as (_ & _ & _ & _ & _ & Wpc & _).
  destruct (q_pc q) eqn:E; auto.
  - destruct (q_kind q); unfold step; rewrite Hq, E; destruct (q_flush q); discriminate.
  - destruct (q_kind q) eqn:K.
    + unfold step. rewrite Hq, E, K.
      match goal with |- match ?x with _ => _ end <> None => destruct x eqn:E2 end; [discriminate|].
      change (getq (vmark s r) r = None) in E2.
      rewrite getq_vmark, Hq in E2. discriminate.
    + unfold step. rewrite Hq, E, K. destruct (alookup (reqs s) oldtag) eqn:E2; [|discriminate].
      apply alookup_In in E2. apply (wf_reqs s W) in E2. destruct (getq_some _ _ E2) as (qt & Hqt).
      rewrite Hqt. rewrite getq_setq, Hq. destruct (r =? n); [discriminate|]. rewrite Hqt. discriminate.
    + split; [|intro v]; unfold step; rewrite Hq, E, K; discriminate.
  - specialize (Wpc target eq_refl). destruct (getq_some _ _ Wpc) as (qt & Hqt).
    destruct (q_kind q); unfold step; rewrite Hq, E, Hqt;
      (destruct (q_work qt || q_saved qt); [rewrite Hq; discriminate|]);
      rewrite getq_setq, Hqt; (destruct (target =? r); [discriminate| rewrite Hq; discriminate]).
  - specialize (Wpc target eq_refl). destruct (getq_some _ _ Wpc) as (qt & Hqt).
    destruct (q_kind q); unfold step; rewrite Hq, E; (destruct worked; [|discriminate]);
      (destruct (has_flushop c); [|discriminate]); rewrite Hqt, getq_setq, Hqt;
      (destruct (target =? r); [discriminate| rewrite Hq; discriminate]).
  - destruct (q_kind q); unfold step; rewrite Hq, E; discriminate.
Qed.

(* invariants are proved by induction on [reach], with every invariant proved so far at hand *)
Lemma reach_inv : forall c (I : st -> Prop), I init ->
  (forall s l s', reach c s -> I s -> Step c s l s' -> I s') -> forall s, reach c s -> I s.
Proof. intros c I I0 IS s H. induction H; eauto using step_Step. Qed.

Lemma run_reach : forall c ls s s', reach c s -> run c s ls = Some s' -> reach c s'.
Proof.
  induction ls; simpl; intros.
  - inversion H0; subst. auto.
  - destruct (step c s a) eqn:E; [|discriminate]. apply (IHls s0 s'); auto. eapply reach_step; eauto.
Qed.

Lemma run_inv : forall c (P : st -> Prop),
  (forall s l s', reach c s -> P s -> Step c s l s' -> P s') ->
  forall ls s s', reach c s -> P s -> run c s ls = Some s' -> P s'.
Proof.
  intros c P PS. induction ls; simpl; intros s s' Rc Ps Hr.
  - inversion Hr; subst. auto.
  - destruct (step c s a) eqn:E; [|discriminate].
    apply (IHls s0 s'); eauto using reach_step, step_Step.
Qed.
