(* Soundness of the locking discipline in the abstract happens-before semantics (Race/HB.v). *)
From Coq Require Import List Bool PeanoNat Lia.
From V9 Require Import Race.HB.
Import ListNotations.

Lemma firstn_S_some : forall (tr : trace) n e,
  nth_error tr n = Some e -> firstn (S n) tr = firstn n tr ++ [e].
Proof.
  induction tr as [|a tr IH]; intros n e Hn.
  - destruct n; discriminate.
  - destruct n as [|n]; simpl in *.
    + inversion Hn; reflexivity.
    + f_equal. apply IH; exact Hn.
Qed.

Lemma firstn_S_none : forall (tr : trace) n,
  nth_error tr n = None -> firstn (S n) tr = firstn n tr.
Proof.
  intros tr n Hn. apply nth_error_None in Hn.
  rewrite (firstn_all2 (n:=n)) by exact Hn.
  apply firstn_all2. lia.
Qed.

Definition side_cond (prefix : trace) (e : ev) : Prop :=
  match e with
  | Acq t l => forall t', ~ holds_after prefix t' l
  | Rel t l => holds_after prefix t l
  | _ => True
  end.

Lemma wf_from_nth : forall rest prefix n e,
  wf_from prefix rest -> nth_error rest n = Some e ->
  side_cond (prefix ++ firstn n rest) e.
Proof.
  induction rest as [|a rest IH]; intros prefix n e Hwf Hn.
  - destruct n; discriminate.
  - destruct Hwf as [Hc Hwf]. destruct n as [|n]; simpl in Hn.
    + inversion Hn; subst a. simpl. rewrite app_nil_r. exact Hc.
    + specialize (IH (prefix ++ [a]) n e Hwf Hn).
      simpl. rewrite <- app_assoc in IH. simpl in IH. exact IH.
Qed.

Lemma holds_dec : forall p t l, {holds_after p t l} + {~ holds_after p t l}.
Proof. intros p t l. unfold holds_after. apply in_dec. exact Nat.eq_dec. Qed.

(* what one more event does to "t holds l" (nothing, when the trace has ended) *)
Lemma holds_step : forall tr n t l,
  holds_after (firstn (S n) tr) t l <->
  match nth_error tr n with
  | Some (Acq t' l') => (t' = t /\ l' = l) \/ holds_after (firstn n tr) t l
  | Some (Rel t' l') => holds_after (firstn n tr) t l /\ ~ (t' = t /\ l' = l)
  | _ => holds_after (firstn n tr) t l
  end.
Proof.
  intros tr n t l. unfold holds_after. destruct (nth_error tr n) as [e|] eqn:Hn.
  2:{ rewrite (firstn_S_none tr n Hn). reflexivity. }
  rewrite (firstn_S_some tr n e Hn), rev_app_distr. cbn [rev app held].
  destruct e as [t0 l0|t0 l0|t0 x0 w0|t0 t1]; try reflexivity;
    destruct (Nat.eqb_spec t0 t) as [E|E]; [| tauto | | tauto].
  - cbn [In]. split; [intros [->|H]; auto | intros [[_ ->]|H]; auto].
  - split.
    + intro H. apply in_remove in H. split; [apply H | intros [_ ->]; apply (proj2 H); reflexivity].
    + intros [H Hne]. apply in_in_remove; [intros ->; apply Hne; auto | exact H].
Qed.

(* no two goroutines hold one mutex at the same time *)
Lemma mutex : forall tr, wf tr -> forall n t t' l,
  holds_after (firstn n tr) t l -> holds_after (firstn n tr) t' l -> t = t'.
Proof.
  intros tr Hwf n. induction n as [|n IH]; intros t t' l H1 H2; [destruct H1|].
  apply holds_step in H1. apply holds_step in H2.
  destruct (nth_error tr n) as [[t0 l0|t0 l0|t0 x0 w0|t0 t1]|] eqn:Hn; try (eapply IH; eauto; fail).
  - pose proof (wf_from_nth tr [] n _ Hwf Hn) as Hc. cbn in Hc.
    destruct H1 as [[<- <-]|H1]; destruct H2 as [[<- E]|H2];
      [reflexivity | destruct (Hc _ H2) | subst l0; destruct (Hc _ H1) | eapply IH; eauto].
  - eapply IH; [apply H1 | apply H2].
Qed.

(* a goroutine comes to hold a mutex only by acquiring it, and ceases to only by releasing it *)
Lemma holds_gain : forall tr n t l,
  ~ holds_after (firstn n tr) t l -> holds_after (firstn (S n) tr) t l ->
  nth_error tr n = Some (Acq t l).
Proof.
  intros tr n t l Hn Hs. apply holds_step in Hs.
  destruct (nth_error tr n) as [[t0 l0|t0 l0|t0 x0 w0|t0 t1]|]; try tauto.
  destruct Hs as [[-> ->]|Hs]; [reflexivity|contradiction].
Qed.

Lemma holds_loss : forall tr n t l,
  holds_after (firstn n tr) t l -> ~ holds_after (firstn (S n) tr) t l ->
  nth_error tr n = Some (Rel t l).
Proof.
  intros tr n t l Hn Hs. rewrite holds_step in Hs.
  destruct (nth_error tr n) as [[t0 l0|t0 l0|t0 x0 w0|t0 t1]|]; try tauto.
  destruct (Nat.eq_dec t0 t) as [->|]; [|tauto]. destruct (Nat.eq_dec l0 l) as [->|]; [reflexivity|tauto].
Qed.

(* hence between two positions where the status differs *)
Lemma holds_change : forall tr t l j i, i <= j ->
  (~ holds_after (firstn i tr) t l -> holds_after (firstn j tr) t l ->
   exists a, i <= a < j /\ nth_error tr a = Some (Acq t l)) /\
  (holds_after (firstn i tr) t l -> ~ holds_after (firstn j tr) t l ->
   exists k, i <= k < j /\ nth_error tr k = Some (Rel t l)).
Proof.
  intros tr t l. induction j as [|j IH]; intros i Hij.
  - replace i with 0 by lia. tauto.
  - destruct (Nat.eq_dec i (S j)) as [->|E]; [tauto|]. destruct (IH i ltac:(lia)) as [IHa IHr].
    assert (Hw : forall e, (exists a, i <= a < j /\ nth_error tr a = Some e) ->
                           exists a, i <= a < S j /\ nth_error tr a = Some e)
      by (intros e (a & Ha & He); exists a; split; [lia | exact He]).
    (* the status at j differs from the one at i, or from the one at S j *)
    destruct (holds_dec (firstn j tr) t l) as [Hj|Hj]; split; intros Hi Hs.
    + apply Hw, IHa; assumption.
    + exists j. split; [lia | apply holds_loss; assumption].
    + exists j. split; [lia | apply holds_gain; assumption].
    + apply Hw, IHr; assumption.
Qed.

(* If every access to x is made while holding one common mutex, no two accesses to x race:
   for ANY well-formed trace (any number of goroutines, any interleaving). *)
Theorem lockset_sound : forall tr x l,
  wf tr -> guarded_by tr x l ->
  forall i j t t' w w',
    i < j -> nth_error tr i = Some (Acc t x w) -> nth_error tr j = Some (Acc t' x w') -> t <> t' ->
    hb tr i j.
Proof.
  intros tr x l Hwf Hg i j t t' w w' Hij Hi Hj Hne.
  pose proof (Hg i t w Hi) as Hhi.
  pose proof (Hg j t' w' Hj) as Hhj.
  (* t' does not hold l at i, so it acquires l at some a between i and j *)
  assert (Hno : ~ holds_after (firstn i tr) t' l).
  { intro Hc. apply Hne. exact (mutex tr Hwf i t t' l Hhi Hc). }
  destruct (proj1 (holds_change tr t' l j i ltac:(lia)) Hno Hhj) as [a [[Ha1 Ha2] Ha]].
  assert (Hia : i < a).
  { destruct (Nat.eq_dec i a) as [E|E]; [subst a; congruence | lia]. }
  (* nobody holds l at a, so t has released it at some k between i and a *)
  pose proof (wf_from_nth tr [] a _ Hwf Ha) as Hfree. cbn in Hfree.
  destruct (proj2 (holds_change tr t l a i ltac:(lia)) Hhi (Hfree t)) as [k [[Hk1 Hk2] Hk]].
  assert (Hik : i < k).
  { destruct (Nat.eq_dec i k) as [E|E]; [subst k; congruence | lia]. }
  apply hb_trans with (j := k).
  - eapply hb_po; [exact Hik | exact Hi | exact Hk | reflexivity].
  - apply hb_trans with (j := a).
    + eapply hb_lock; [exact Hk2 | exact Hk | exact Ha].
    + eapply hb_po; [exact Ha2 | exact Ha | exact Hj | reflexivity].
Qed.

(* a variable confined to one goroutine cannot race *)
Theorem confined_sound : forall tr x t,
  confined_to tr x t ->
  ~ exists i j t1 t2 w w',
      i < j /\ nth_error tr i = Some (Acc t1 x w) /\ nth_error tr j = Some (Acc t2 x w') /\ t1 <> t2.
Proof.
  intros tr x t Hc [i [j [t1 [t2 [w [w' [_ [Hi [Hj Hne]]]]]]]]].
  apply Hne. rewrite (Hc i t1 w Hi), (Hc j t2 w' Hj). reflexivity.
Qed.

(* hence: a trace in which every shared variable is either guarded by some mutex or
   confined to one goroutine has no data race *)
Theorem discipline_race_free : forall tr,
  wf tr ->
  (forall x, (exists l, guarded_by tr x l) \/ (exists t, confined_to tr x t)) ->
  ~ race tr.
Proof.
  intros tr Hwf Hd [i [j [t [t' [x [w [w' [Hij [Hi [Hj [Hne [Hw Hnhb]]]]]]]]]]]].
  destruct (Hd x) as [[l Hg]|[t0 Hc]].
  - apply Hnhb. exact (lockset_sound tr x l Hwf Hg i j t t' w w' Hij Hi Hj Hne).
  - apply (confined_sound tr x t0 Hc).
    exists i, j, t, t', w, w'. repeat split; assumption.
Qed.

(* non-vacuity: a well-formed trace with two goroutines incrementing x under mutex 0 *)
Example discipline_example :
  let tr := [Fork 0 1; Acq 0 0; Acc 0 7 true; Rel 0 0; Acq 1 0; Acc 1 7 true; Rel 1 0] in
  wf tr /\ guarded_by tr 7 0.
Proof.
  cbv zeta. split.
  - unfold wf. simpl. unfold holds_after. simpl. repeat split; try tauto.
    intros t' H. destruct t' as [|t']; simpl in H; exact H.
  - unfold guarded_by, holds_after. intros i t w Hi.
    destruct i as [|[|[|[|[|[|[|i]]]]]]]; simpl in Hi; try discriminate.
    + inversion Hi; subst. simpl. tauto.
    + inversion Hi; subst. simpl. tauto.
    + destruct i; discriminate.
Qed.

Print Assumptions lockset_sound.
Print Assumptions discipline_race_free.
