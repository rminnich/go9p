(* The ring of Log/Ring.v as a window on the logged sequence: ring_turn (one step round the ring),
   RingInv (the ring, rotated to its index, is cap empty slots followed by the logged entries, with
   as many dropped from the front as were logged), Filter against spec_filter; then producers, channel and logger as a system: LInv, what
   was processed as an interleaving of what the producers sent, the logger never stuck (C20). *)
From Coq Require Import NArith List PeanoNat Lia.
From V9 Require Import Lib.GoSem Lib.ListFacts Gen.Consts Log.Ring.
Import ListNotations.

Definition rot {A} (i : nat) (l : list A) : list A := skipn i l ++ firstn i l.

Lemma rot_length {A} i (l : list A) : length (rot i l) = length l.
Proof. unfold rot. rewrite app_length, skipn_length, firstn_length. lia. Qed.

Lemma rot_0 {A} (l : list A) : rot 0 l = l.
Proof. apply app_nil_r. Qed.

Lemma rot_full {A} (l : list A) : rot (length l) l = rot 0 l.
Proof. rewrite rot_0. unfold rot. now rewrite skipn_all, firstn_all. Qed.

Lemma rot_app {A} (a c : list A) : rot (length a) (a ++ c) = c ++ a.
Proof.
  unfold rot. rewrite skipn_app, firstn_app, skipn_all, firstn_all, Nat.sub_diag.
  cbn. rewrite app_nil_r. reflexivity.
Qed.

Lemma rot_filter_length {A} (f : A -> bool) i l :
  length (filter f (rot i l)) = length (filter f l).
Proof.
  unfold rot.
  now rewrite filter_app, app_length, Nat.add_comm, <- app_length, <- filter_app, firstn_skipn.
Qed.

(* One step round the ring, as the collection pass and log_step take it: the index
   wraps at the end, the slot it then names is the head of the rotation, and moving
   past it (or past what is written there) turns the rotation by one. *)
Lemma ring_turn {A} (l : list A) i x t :
  i <= length l -> rot i l = x :: t ->
  let i' := if length l <=? i then 0 else i in
  nth_error l i' = Some x /\ rot (S i') l = t ++ [x] /\
  forall y, rot (S i') (upd l i' y) = t ++ [y].
Proof.
  intros Hi Hr i'.
  assert (H : rot i' l = x :: t /\ i' < length l).
  { subst i'. destruct (Nat.leb_spec (length l) i); [|auto].
    replace i with (length l) in Hr by lia. rewrite rot_full in Hr.
    split; [exact Hr|]. destruct l; [discriminate|cbn; lia]. }
  clearbody i'. destruct H as [H Hlt]. unfold rot in H.
  pose proof (firstn_skipn i' l) as Hl.
  pose proof (firstn_length_le l (Nat.lt_le_incl _ _ Hlt)) as Ha.
  destruct (skipn i' l) as [|z b].
  { rewrite app_nil_r in Hl. rewrite Hl in Ha. lia. }
  injection H as -> <-. revert Hl Ha. generalize (firstn i' l). intros a <- <-.
  assert (H : forall y, rot (S (length a)) (a ++ y :: b) = (b ++ a) ++ [y]).
  { intros y. rewrite <- (last_length a y), <- app_assoc.
    change (a ++ y :: b) with (a ++ [y] ++ b). rewrite app_assoc. apply rot_app. }
  split; [|split; [apply H|intros y; rewrite upd_app; apply H]].
  rewrite nth_error_app2, Nat.sub_diag by lia. reflexivity.
Qed.

(* the matching entries in a run of slots *)
Definition somes (ow : option N) (ty : N) (l : list (option entry)) : list entry :=
  flat_map (fun it => match it with
                      | Some e => if matches ow ty e then [e] else []
                      | None => [] end) l.

Lemma somes_count ow ty l : length (somes ow ty l) = length (filter (matches_opt ow ty) l).
Proof.
  induction l as [|[e|] t IH]; simpl; auto.
  destruct (matches ow ty e); simpl; rewrite ?IH; auto.
Qed.

Lemma somes_window ow ty k w :
  somes ow ty (repeat None k ++ map Some w) = filter (matches ow ty) w.
Proof.
  induction k; [|exact IHk]. induction w as [|e t IH]; simpl in *; [reflexivity|].
  destruct (matches ow ty e); simpl; rewrite IH; reflexivity.
Qed.

Lemma collect_turn ow ty its :
  forall v rest i m n,
    i <= length its -> rot i its = v ++ rest ->
    n - m = length (somes ow ty v) ->
    collect (length v) its ow ty i m n = Ok (somes ow ty v).
Proof.
  induction v as [|x v IH]; intros rest i m n Hi Hv Hn; cbn [collect length];
    destruct (Nat.leb_spec n m).
  - reflexivity.
  - cbn in Hn. lia.
  - destruct (somes ow ty (x :: v)); [reflexivity|cbn [length] in Hn; lia].
  - destruct (ring_turn its i x (v ++ rest) Hi Hv) as (Hx & Hnext & _).
    set (i' := if length its <=? i then 0 else i) in *. rewrite Hx.
    assert (i' < length its) by (apply nth_error_Some; congruence).
    rewrite <- app_assoc in Hnext. cbn [somes flat_map] in *. fold (somes ow ty v) in *.
    rewrite app_length in Hn.
    destruct x as [e|]; cbn [matches_opt]; [destruct (matches ow ty e)|];
      cbn [length app] in *; erewrite IH by first [exact Hnext|lia]; reflexivity.
Qed.

Lemma lastn_all {A} n (l : list A) : length l <= n -> lastn n l = l.
Proof. intros. unfold lastn. replace (length l - n) with 0 by lia. auto. Qed.

Lemma lastn_snoc {A} n (l : list A) x :
  lastn (S n) (l ++ [x]) = lastn n l ++ [x].
Proof.
  unfold lastn. rewrite app_length. simpl.
  replace (length l + 1 - S n) with (length l - n) by lia.
  rewrite skipn_app.
  replace (length l - n - length l) with 0 by lia. auto.
Qed.

Lemma window_skipn cap logged : window cap logged = skipn (length logged - cap) logged.
Proof. unfold window, lastn. f_equal. lia. Qed.

(* the ring, read from idx: put cap empty slots before everything logged and drop
   one slot for every entry logged *)
Definition RingInv (cap : nat) (logged : list entry) (r : ring) : Prop :=
  length (items r) = cap /\ idx r <= cap /\
  rot (idx r) (items r) = skipn (length logged) (repeat None cap ++ map Some logged).

Lemma log_step_inv cap logged r e :
  1 <= cap -> RingInv cap logged r -> RingInv cap (logged ++ [e]) (log_step r e).
Proof.
  intros Hc (Hlen & Hidx & Hview). unfold RingInv, log_step. cbn [items idx].
  destruct (rot (idx r) (items r)) as [|x t] eqn:Hr.
  { apply (f_equal (@length _)) in Hr. rewrite rot_length in Hr. cbn in Hr. lia. }
  destruct (ring_turn (items r) (idx r) x t ltac:(lia) Hr) as (_ & _ & ->).
  rewrite upd_length. split; [exact Hlen|].
  split; [destruct (Nat.leb_spec (length (items r)) (idx r)); lia|].
  rewrite map_app, app_assoc, app_length, Nat.add_1_r, skipn_app, <- tl_skipn, <- Hview.
  rewrite app_length, repeat_length, map_length.
  replace (S _ - _) with 0 by lia. reflexivity.
Qed.

Lemma logged_inv cap logged :
  1 <= cap -> RingInv cap logged (fold_left log_step logged (ring_init cap)).
Proof.
  intros Hc. induction logged as [|e t IH] using rev_ind.
  - unfold RingInv, ring_init. cbn [fold_left items idx length skipn map].
    rewrite rot_0, repeat_length, app_nil_r. auto using Nat.le_0_l.
  - rewrite fold_left_app. apply log_step_inv; assumption.
Qed.

Lemma ring_filter_inv cap logged r ow ty :
  RingInv cap logged r -> ring_filter r ow ty = Ok (spec_filter cap logged ow ty).
Proof.
  intros (Hlen & Hidx & Hview).
  assert (Hs : somes ow ty (rot (idx r) (items r)) = spec_filter cap logged ow ty).
  { rewrite Hview, skipn_app, repeat_length, skipn_map.
    destruct (repeat_eq_app (@None entry) cap _ _
                (eq_sym (firstn_skipn (length logged) (repeat None cap)))) as [_ <-].
    rewrite somes_window, <- window_skipn. reflexivity. }
  unfold ring_filter, count_matching. rewrite <- Hs, <- (rot_length (idx r)).
  apply collect_turn with (rest := []); [lia|symmetry; apply app_nil_r|].
  rewrite somes_count, rot_filter_length. lia.
Qed.

(* [Ok]: one turn of the ring is fuel enough for the collection pass, and no index leaves
   the ring *)
Theorem filter_is_last_N cap logged ow ty :
  1 <= cap ->
  ring_filter (fold_left log_step logged (ring_init cap)) ow ty
  = Ok (spec_filter cap logged ow ty).
Proof.
  intros Hc. apply ring_filter_inv, logged_inv, Hc.
Qed.

Lemma window_length cap logged : length (window cap logged) <= cap.
Proof. rewrite window_skipn, skipn_length. lia. Qed.

Lemma filter_len_le {A} (f : A -> bool) l : length (filter f l) <= length l.
Proof. induction l as [|x t IH]; simpl; auto. destruct (f x); simpl; lia. Qed.

Lemma spec_filter_length cap logged ow ty : length (spec_filter cap logged ow ty) <= cap.
Proof.
  unfold spec_filter.
  pose proof (window_length cap logged).
  pose proof (filter_len_le (matches ow ty) (window cap logged)). lia.
Qed.

Lemma window_suffix cap logged : exists pre, logged = pre ++ window cap logged.
Proof.
  exists (firstn (length logged - cap) logged). rewrite window_skipn. symmetry. apply firstn_skipn.
Qed.

Lemma spec_filter_matches cap logged ow ty e :
  In e (spec_filter cap logged ow ty) -> matches ow ty e = true /\ In e logged.
Proof.
  intros H. apply filter_In in H as [H1 H2]. split; [exact H2|].
  destruct (window_suffix cap logged) as [pre Hp]. rewrite Hp. apply in_or_app. auto.
Qed.

Fixpoint spec_run (cap : nat) (sofar : list entry) (ops : list lop) : list (res (list entry)) :=
  match ops with
  | [] => []
  | LLog e :: t => spec_run cap (sofar ++ [e]) t
  | LFilter ow ty :: t => Ok (spec_filter cap sofar ow ty) :: spec_run cap sofar t
  end.

Theorem run_ops_spec cap ops :
  1 <= cap -> run_ops (ring_init cap) ops = spec_run cap [] ops.
Proof.
  intros Hc.
  assert (G : forall ops sofar,
             run_ops (fold_left log_step sofar (ring_init cap)) ops = spec_run cap sofar ops).
  { clear ops. induction ops as [|[e|ow ty] t IH]; intros sofar; simpl; auto.
    - rewrite <- IH. rewrite fold_left_app. auto.
    - rewrite filter_is_last_N by auto. f_equal. apply IH. }
  apply (G ops []).
Qed.

Fixpoint logged_of (ops : list lop) : list entry :=
  match ops with
  | [] => []
  | LLog e :: t => e :: logged_of t
  | LFilter _ _ :: t => logged_of t
  end.

Inductive Merge : list (list entry) -> list entry -> Prop :=
| MergeNil ls : Forall (fun l => l = []) ls -> Merge ls []
| MergeSnoc ls l p lp e :
    Merge ls l -> nth_error ls p = Some lp ->
    Merge (upd ls p (lp ++ [e])) (l ++ [e]).

Inductive lreach (cap : nat) (todo0 : list (list entry)) : lsys -> Prop :=
| lreach_init : lreach cap todo0 (lsys_init cap todo0)
| lreach_step s lb s' : lreach cap todo0 s -> lstep s lb = Some s' -> lreach cap todo0 s'.

Definition LInv (cap : nat) (todo0 : list (list entry)) (s : lsys) : Prop :=
  l_ring s = fold_left log_step (l_processed s) (ring_init cap) /\
  (exists consumed,
      length consumed = length todo0 /\
      (forall p c t, nth_error consumed p = Some c -> nth_error (l_todo s) p = Some t ->
                     nth_error todo0 p = Some (c ++ t)) /\
      length (l_todo s) = length todo0 /\
      Merge consumed (l_processed s ++ l_chan s)) /\
  (forall r, In r (l_results s) ->
             exists n ow ty, n <= length (l_processed s) /\
                             r = spec_filter cap (firstn n (l_processed s)) ow ty) /\
  (N.of_nat (length (l_chan s)) <= c_cap_logchan)%N.

Lemma linv_init cap todo0 : LInv cap todo0 (lsys_init cap todo0).
Proof.
  unfold LInv, lsys_init. simpl. split; [auto|]. split.
  - exists (map (fun _ => []) todo0). rewrite map_length. split; [auto|]. split.
    + intros p c t Hc Ht. rewrite nth_error_map in Hc.
      rewrite Ht in Hc. simpl in Hc. inversion Hc. auto.
    + split; auto. constructor. apply Forall_forall. intros x Hx.
      apply in_map_iff in Hx. destruct Hx as (? & ? & ?). auto.
  - split; [intros r []|]. unfold c_cap_logchan. lia.
Qed.

Lemma linv_step cap todo0 s lb s' :
  1 <= cap -> LInv cap todo0 s -> lstep s lb = Some s' -> LInv cap todo0 s'.
Proof.
  intros Hc (Hring & (consumed & Hcl & Hcons & Htl & Hmerge) & Hres & Hcap) Hstep.
  destruct lb as [p| |ow ty]; simpl in Hstep.
  - destruct (nth_error (l_todo s) p) as [[|e rest]|] eqn:Hp; try discriminate.
    destruct (N.ltb_spec (N.of_nat (length (l_chan s))) c_cap_logchan) as [Hlt|]; try discriminate.
    inversion Hstep; subst s'; clear Hstep. unfold LInv; simpl.
    split; [auto|]. split.
    + assert (Hpl : p < length consumed).
      { rewrite Hcl, <- Htl. apply nth_error_Some. congruence. }
      destruct (nth_error consumed p) as [c|] eqn:Hcp.
      2:{ apply nth_error_None in Hcp. lia. }
      exists (upd consumed p (c ++ [e])). rewrite upd_length. split; [auto|]. split.
      * intros q c' t' Hc' Ht'.
        destruct (Nat.eq_dec p q) as [->|Hne].
        -- rewrite (nth_error_upd_same _ _ _ _ Hcp) in Hc'.
           rewrite (nth_error_upd_same _ _ _ _ Hp) in Ht'.
           inversion Hc'; inversion Ht'; subst.
           rewrite (Hcons q c (e :: t') Hcp Hp). rewrite <- app_assoc. auto.
        -- rewrite nth_error_upd_other in Hc', Ht' by auto. eauto.
      * rewrite upd_length. split; [auto|].
        rewrite app_assoc. econstructor; eauto.
    + split; [auto|]. rewrite app_length. simpl. lia.
  - destruct (l_chan s) as [|e rest] eqn:Hch; try discriminate.
    inversion Hstep; subst s'; clear Hstep. unfold LInv; simpl.
    split.
    { rewrite fold_left_app. simpl. rewrite Hring. auto. }
    split.
    { exists consumed. repeat split; auto. rewrite <- app_assoc. simpl. auto. }
    split.
    { intros r Hr. destruct (Hres r Hr) as (n & ow & ty & Hn & ->).
      exists n, ow, ty. rewrite app_length, firstn_app. replace (n - _) with 0 by lia.
      simpl. rewrite app_nil_r. split; [lia|reflexivity]. }
    simpl in Hcap. lia.
  - destruct (ring_filter (l_ring s) ow ty) as [r| | |] eqn:Hf; try discriminate.
    inversion Hstep; subst s'; clear Hstep. unfold LInv; simpl.
    split; [auto|]. split; [exists consumed; repeat split; auto|]. split; [|auto].
    intros r' [<-|Hr']; [|auto].
    rewrite Hring, filter_is_last_N in Hf by auto. inversion Hf.
    exists (length (l_processed s)), ow, ty. rewrite firstn_all. auto.
Qed.

Theorem linv_reach cap todo0 s : 1 <= cap -> lreach cap todo0 s -> LInv cap todo0 s.
Proof.
  intros Hc H. induction H.
  - apply linv_init.
  - eapply linv_step; eauto.
Qed.

(* what the logger has processed, followed by what is still queued, is a merge of prefixes
   of the producers' sequences that keeps each producer's order *)
Theorem processed_is_fair_merge cap todo0 s :
  1 <= cap -> lreach cap todo0 s ->
  exists consumed,
    length consumed = length todo0 /\
    (forall p c t, nth_error consumed p = Some c -> nth_error (l_todo s) p = Some t ->
                   nth_error todo0 p = Some (c ++ t)) /\
    Merge consumed (l_processed s ++ l_chan s).
Proof.
  intros Hc Hr. destruct (linv_reach _ _ _ Hc Hr) as (_ & (c & H1 & H2 & _ & H4) & _).
  exists c; auto.
Qed.

Theorem filter_results_are_windows cap todo0 s r :
  1 <= cap -> lreach cap todo0 s -> In r (l_results s) ->
  exists n ow ty, r = spec_filter cap (firstn n (l_processed s)) ow ty.
Proof.
  intros Hc Hr Hin. destruct (linv_reach _ _ _ Hc Hr) as (_ & _ & H & _).
  destruct (H r Hin) as (n & ow & ty & _ & ->). eauto.
Qed.

(* With the channel drained, what was processed is all that was sent: Filter then returns
   the matching ones among the last [cap] logged.  The hypothesis is not used: at every
   moment the ring holds what [l_processed] lists. *)
Theorem filter_converges cap todo0 s ow ty :
  1 <= cap -> lreach cap todo0 s -> l_chan s = [] ->
  ring_filter (l_ring s) ow ty = Ok (spec_filter cap (l_processed s) ow ty).
Proof.
  intros Hc Hr _. destruct (linv_reach _ _ _ Hc Hr) as (H & _).
  rewrite H. apply filter_is_last_N; auto.
Qed.

(* [lstep] is [None] where the Go statement would block or panic: a Filter request is
   always served, and a producer blocked on a full channel is freed by the logger's receive *)
Theorem logger_never_stuck cap todo0 s :
  1 <= cap -> lreach cap todo0 s ->
  (forall ow ty, lstep s (LbFilter ow ty) <> None) /\
  (l_chan s <> [] -> lstep s LbRecv <> None) /\
  (forall p e rest, nth_error (l_todo s) p = Some (e :: rest) ->
                    lstep s (LbSend p) <> None \/ lstep s LbRecv <> None).
Proof.
  intros Hc Hr. destruct (linv_reach _ _ _ Hc Hr) as (Hring & _ & _ & Hcap).
  split; [|split].
  - intros ow ty. simpl. rewrite Hring, filter_is_last_N by auto. discriminate.
  - intros Hne. simpl. destruct (l_chan s); congruence.
  - intros p e rest Hp. simpl. rewrite Hp.
    destruct (N.ltb_spec (N.of_nat (length (l_chan s))) c_cap_logchan) as [Hlt|Hge].
    + left. discriminate.
    + right. destruct (l_chan s) eqn:E; [|discriminate].
      simpl in Hge. unfold c_cap_logchan in Hge. lia.
Qed.

(* the last clause of filter_result_ok holds of the specification's own answer *)
Lemma list_eqb_refl l : list_eqb l l = true.
Proof.
  unfold list_eqb. rewrite Nat.eqb_refl. simpl.
  induction l as [|x t IH]; simpl; auto. rewrite N.eqb_refl. auto.
Qed.
