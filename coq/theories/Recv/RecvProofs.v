(* Both receive loops of Recv/Recv.v against the framing specification Frames of RecvLemmas:
   inner and run deliver the frames of the bytes read, whatever the segmentation (C13); the
   receive buffer stays within its bound. *)
From Coq Require Import NArith List PeanoNat Lia.
From V9 Require Import Lib.GoSem Lib.Bytes Lib.ListFacts Gen.Consts Codec.Msg Codec.Unpack Codec.UnpackProofs Recv.Recv Recv.RecvLemmas.
Import ListNotations.
Local Open Scope N_scope.

Definition negot_ok (negot : params -> msg -> params) : Prop :=
  forall p m, c_IOHDRSZ <= p_msize p -> c_IOHDRSZ <= p_msize (negot p m) /\ p_msize (negot p m) <= p_msize p.

Theorem negot_srv_ok : forall srv_dotu, negot_ok (negot_srv srv_dotu).
Proof.
  unfold negot_ok, negot_srv. intros srv_dotu p m H.
  destruct m; try (split; [assumption|lia]).
  destruct (N.ltb_spec msize c_IOHDRSZ); [split; [assumption|lia]|].
  cbn [p_msize].
  destruct (N.ltb_spec msize (p_msize p)); split; lia.
Qed.

Theorem negot_none_ok : negot_ok negot_none.
Proof.
  unfold negot_ok, negot_none. intros p m H. split; [assumption|lia].
Qed.

Section Loop.
  Variable negot : params -> msg -> params.
  Variable bufmul : N.
  Hypothesis Hneg : negot_ok negot.

  Section Bound.
    Variable B : N.

    Definition bounded (s : rstate) : Prop :=
      r_cap s <= B /\ len (r_acc s) <= B /\ bufmul * p_msize (r_par s) <= B /\
      c_IOHDRSZ <= p_msize (r_par s).

    Lemma inner_bounded : forall f s s' its,
      bounded s -> inner negot true bufmul f s = (s', its) -> bounded s'.
    Proof.
      induction f; intros s s' its Hb Hin; [injection Hin as <- _; exact Hb|].
      rewrite inner_step in Hin. destruct (next (r_par s) (r_acc s)) as [| |tag m sz] eqn:E.
      - injection Hin as <- _. destruct Hb as (H1 & H2 & H3 & H4).
        destruct (parked_fields bufmul s) as (Ea & Ep & _ & Ec). unfold bounded. rewrite Ea, Ep.
        repeat split; try assumption. destruct Ec as [[-> _]| ->]; assumption.
      - injection Hin as <- _. exact Hb.
      - destruct (inner negot true bufmul f _) as [s'' its2] eqn:R. injection Hin as <- _.
        apply IHf in R; [exact R|]. destruct Hb as (H1 & H2 & H3 & H4).
        destruct (Hneg (r_par s) m H4).
        repeat split; cbn [r_cap r_acc r_par]; [lia| |nia|assumption].
        unfold len in *. rewrite skipn_length. lia.
    Qed.

    Lemma outer_bounded : forall s seg s' its,
      bounded s -> outer negot true bufmul s seg = (s', its) -> bounded s'.
    Proof.
      intros s seg s' its Hb Ho. unfold outer in Ho.
      destruct (r_st s). 2,3: injection Ho as <- _; exact Hb.
      destruct Hb as (H1 & H2 & H3 & H4).
      remember (if r_cap s <? p_msize (r_par s) then bufmul * p_msize (r_par s) else r_cap s) as cap eqn:Hc.
      assert (cap <= B) by (subst cap; destruct (r_cap s <? p_msize (r_par s)); assumption).
      destruct (N.leb_spec cap (len (r_acc s))).
      { injection Ho as <- _. repeat split; assumption. }
      apply inner_bounded in Ho; [exact Ho|]. repeat split; cbn [r_cap r_acc r_par]; auto.
      rewrite len_app. unfold len in *. rewrite firstn_length. lia.
    Qed.

    Lemma run_bounded : forall f s segs s' its,
      bounded s -> run negot true bufmul f s segs = (s', its) -> bounded s'.
    Proof.
      induction f; intros s segs s' its Hb Hr; cbn [run] in Hr; [injection Hr as <- _; exact Hb|].
      destruct segs as [|seg rest]; [injection Hr as <- _; exact Hb|].
      destruct (r_st s). 2,3: injection Hr as <- _; exact Hb.
      destruct (outer negot true bufmul s seg) as [s1 its1] eqn:Ho.
      destruct (run negot true bufmul f s1 _) as [s2 its2] eqn:Hr2.
      injection Hr as <- _. apply outer_bounded in Ho; [|exact Hb]. exact (IHf _ _ _ _ Ho Hr2).
    Qed.
  End Bound.

  Hypothesis Hbm : 1 <= bufmul.

  (* the loop between two reads: open, waiting, and the buffer can hold the frame announced *)
  Definition resting (s : rstate) : Prop :=
    r_st s = Open /\ c_IOHDRSZ <= p_msize (r_par s) /\ next (r_par s) (r_acc s) = Wait /\
    (4 < len (r_acc s) -> le_dec (firstn 4 (r_acc s)) <= r_cap s).

  Lemma inner_frames : forall f s s' its,
    r_st s = Open -> c_IOHDRSZ <= p_msize (r_par s) -> (length (r_acc s) < f)%nat ->
    inner negot true bufmul f s = (s', its) ->
    exists bad, Frames negot (r_par s) (r_acc s) its (r_par s') (r_acc s') bad /\
                if bad then r_st s' = ClosedBad else resting s'.
  Proof.
    induction f; intros s s' its Hop Hms Hf Hin; [lia|].
    rewrite inner_step in Hin. destruct (next (r_par s) (r_acc s)) as [| |tag m sz] eqn:E.
    - injection Hin as <- <-. exists false.
      destruct (parked_fields bufmul s) as (Ea & Ep & Est & Ec). unfold resting. rewrite Ea, Ep.
      split; [apply Frames_wait, E|]. repeat split; auto. intros H4.
      destruct Ec as [[-> Hc]| ->]; [auto|].
      apply next_wait in E as [|[? _]]; [lia|]. nia.
    - injection Hin as <- <-. exists true. split; [apply Frames_bad, E|reflexivity].
    - destruct (inner negot true bufmul f _) as [s'' its2] eqn:R. injection Hin as <- <-.
      apply IHf in R as (bad & HF & Hend); cbn [r_st r_par r_acc] in *.
      + exists bad. split; [apply Frames_got; assumption|exact Hend].
      + reflexivity.
      + apply Hneg, Hms.
      + apply next_got_shorter in E. lia.
  Qed.

  Lemma run_not_open : forall f s segs, r_st s <> Open -> run negot true bufmul f s segs = (s, []).
  Proof.
    destruct f; intros; cbn [run]; auto. destruct segs; auto.
    destruct (r_st s); congruence.
  Qed.

  Lemma concat_left : forall (left : bytes) rest,
    concat (match left with [] => rest | _ => left :: rest end) = left ++ concat rest.
  Proof. destruct left; reflexivity. Qed.

  Lemma run_frames : forall fuel s segs s' its,
    resting s -> (length (concat segs) + length segs < fuel)%nat ->
    run negot true bufmul fuel s segs = (s', its) ->
    exists rest bad, Frames negot (r_par s) (r_acc s ++ concat segs) its (r_par s') rest bad /\
                     if bad then r_st s' = ClosedBad else resting s' /\ r_acc s' = rest.
  Proof.
    induction fuel; intros s segs s' its Hrest Hfuel Hrun; [lia|].
    pose proof Hrest as (Hop & Hms & Hw & Hcap).
    destruct segs as [|seg rest].
    { injection Hrun as <- <-. exists (r_acc s), false. rewrite app_nil_r.
      split; [apply Frames_wait, Hw|auto]. }
    cbn [run] in Hrun. rewrite Hop in Hrun.
    remember (if r_cap s <? p_msize (r_par s) then bufmul * p_msize (r_par s) else r_cap s) as cap eqn:Hc.
    assert (Hroom : len (r_acc s) < cap).
    { apply next_wait in Hw. unfold c_IOHDRSZ in Hms. subst cap.
      destruct (N.ltb_spec (r_cap s) (p_msize (r_par s))); nia. }
    destruct (outer negot true bufmul s seg) as [s1 its1] eqn:Ho.
    unfold outer in Ho. rewrite Hop, <- Hc in Ho.
    destruct (N.leb_spec cap (len (r_acc s))) as [?|_]; [lia|].
    remember (N.to_nat (cap - len (r_acc s))) as room eqn:Hrm.
    destruct (run negot true bufmul fuel s1 _) as [s2 its2] eqn:Hr2.
    injection Hrun as <- <-.
    apply inner_frames in Ho as (bad1 & HF1 & Hend1); cbn [r_st r_par r_acc] in *; auto.
    replace (r_acc s ++ concat (seg :: rest))
      with ((r_acc s ++ firstn room seg) ++ skipn room seg ++ concat rest)
      by (cbn [concat]; rewrite <- app_assoc, (app_assoc (firstn _ _)), firstn_skipn; reflexivity).
    apply Frames_app with (more := skipn room seg ++ concat rest) in HF1.
    destruct bad1.
    - rewrite run_not_open in Hr2 by congruence. injection Hr2 as <- <-.
      rewrite app_nil_r. eauto.
    - apply IHfuel in Hr2 as (rest2 & bad2 & HF2 & Hend2); [|apply Hend1|].
      + rewrite concat_left in HF2. eauto.
      + (* the read took at least one byte of seg, or all of it *)
        rewrite concat_left. cbn [concat length] in Hfuel. rewrite app_length in *.
        pose proof (firstn_skipn room seg) as Hs. apply (f_equal (@length _)) in Hs.
        rewrite app_length, firstn_length in Hs.
        destruct (skipn room seg); cbn [length] in *; lia.
  Qed.
End Loop.

Lemma run_spec : forall negot bufmul p segs s its its' p' rest bad,
  negot_ok negot -> 1 <= bufmul -> c_IOHDRSZ <= p_msize p ->
  run negot true bufmul (S (length (concat segs) + length segs)) (rinit bufmul p) segs = (s, its) ->
  frames negot true (S (length (concat segs))) p (concat segs) = (its', p', rest, bad) ->
  its = its' /\ r_st s = (if bad then ClosedBad else Open) /\
  (bad = false -> r_acc s = rest /\ r_par s = p').
Proof.
  intros negot bufmul p segs s its its' p' rest bad Hneg Hbm Hms Hrun Hfr.
  apply run_frames in Hrun as (rest0 & bad0 & HF & Hend); auto.
  - apply Frames_frames with (F := S (length (concat segs))) in HF; [|apply Nat.lt_succ_diag_r].
    cbn [rinit r_acc r_par app] in HF. rewrite Hfr in HF. injection HF as -> -> -> ->.
    destruct bad0; [repeat split; [exact Hend|discriminate]|].
    destruct Hend as ((Hop & _) & <-). auto.
  - repeat split; [exact Hms|discriminate].
Qed.

Theorem run_segmentation_invariant : forall negot bufmul p segs,
  negot_ok negot -> 1 <= bufmul -> c_IOHDRSZ <= p_msize p ->
  Forall (fun s => s <> []) segs ->
  forall s its its' p' rest bad,
  run negot true bufmul (S (length (concat segs) + length segs)) (rinit bufmul p) segs = (s, its) ->
  frames negot true (S (length (concat segs))) p (concat segs) = (its', p', rest, bad) ->
  its = its' /\ r_st s <> ReadEmpty /\
  (bad = true <-> r_st s = ClosedBad) /\
  (bad = false -> r_acc s = rest /\ r_par s = p').
Proof.
  intros negot bufmul p segs Hneg Hbm Hms _ s its its' p' rest bad Hrun Hfr.
  destruct (run_spec _ _ _ _ _ _ _ _ _ _ Hneg Hbm Hms Hrun Hfr) as (Hi & Hst & Hr).
  rewrite Hst. destruct bad; intuition discriminate.
Qed.

Lemma two_segmentations : forall negot bufmul p segs1 segs2,
  negot_ok negot -> 1 <= bufmul -> c_IOHDRSZ <= p_msize p ->
  Forall (fun s => s <> []) segs1 -> Forall (fun s => s <> []) segs2 ->
  concat segs1 = concat segs2 ->
  let r1 := run negot true bufmul (S (length (concat segs1) + length segs1)) (rinit bufmul p) segs1 in
  let r2 := run negot true bufmul (S (length (concat segs2) + length segs2)) (rinit bufmul p) segs2 in
  snd r1 = snd r2 /\ r_st (fst r1) = r_st (fst r2).
Proof.
  intros negot bufmul p segs1 segs2 Hneg Hbm Hms _ _ Hc r1 r2.
  destruct r1 as [s1 its1] eqn:E1. destruct r2 as [s2 its2] eqn:E2. subst r1 r2. cbn [fst snd].
  destruct (frames negot true (S (length (concat segs1))) p (concat segs1)) as [[[its' p'] rest] bad] eqn:Hfr.
  destruct (run_spec _ _ _ _ _ _ _ _ _ _ Hneg Hbm Hms E1 Hfr) as (-> & -> & _).
  rewrite Hc in Hfr.
  destruct (run_spec _ _ _ _ _ _ _ _ _ _ Hneg Hbm Hms E2 Hfr) as (-> & -> & _).
  split; reflexivity.
Qed.

Theorem srv_any_two_segmentations : forall srv_dotu p segs1 segs2,
  c_IOHDRSZ <= p_msize p ->
  Forall (fun s => s <> []) segs1 -> Forall (fun s => s <> []) segs2 ->
  concat segs1 = concat segs2 ->
  snd (srv_run srv_dotu p segs1) = snd (srv_run srv_dotu p segs2) /\
  r_st (fst (srv_run srv_dotu p segs1)) = r_st (fst (srv_run srv_dotu p segs2)).
Proof.
  intros srv_dotu p segs1 segs2 Hms H1 H2 Hc. unfold srv_run.
  apply (two_segmentations (negot_srv srv_dotu) c_bufmul_srv); auto.
  - apply negot_srv_ok.
  - unfold c_bufmul_srv. lia.
Qed.

Theorem clnt_any_two_segmentations : forall p segs1 segs2,
  c_IOHDRSZ <= p_msize p ->
  Forall (fun s => s <> []) segs1 -> Forall (fun s => s <> []) segs2 ->
  concat segs1 = concat segs2 ->
  snd (clnt_run p segs1) = snd (clnt_run p segs2) /\
  r_st (fst (clnt_run p segs1)) = r_st (fst (clnt_run p segs2)).
Proof.
  intros p segs1 segs2 Hms H1 H2 Hc. unfold clnt_run.
  apply (two_segmentations negot_none c_bufmul_clnt); auto.
  - apply negot_none_ok.
  - unfold c_bufmul_clnt. lia.
Qed.

(* the receive buffer is never reallocated beyond bufmul times the msize the loop started with *)
Theorem buffer_bounded : forall negot bufmul p segs s its,
  negot_ok negot -> 1 <= bufmul -> c_IOHDRSZ <= p_msize p ->
  run negot true bufmul (S (length (concat segs) + length segs)) (rinit bufmul p) segs = (s, its) ->
  r_cap s <= bufmul * p_msize p /\ len (r_acc s) <= bufmul * p_msize p.
Proof.
  intros negot bufmul p segs s its Hneg Hbm Hms Hrun.
  apply (run_bounded negot bufmul Hneg (bufmul * p_msize p)) in Hrun.
  - destruct Hrun as (H1 & H2 & _). auto.
  - repeat split; cbn [rinit r_cap r_acc r_par]; [lia|apply N.le_0_l|lia|exact Hms].
Qed.

(* Despite the name: bytes left over without [bad] announce a size that is within msize and
   has not arrived in full.  (A frame announcing more than msize sets [bad].) *)
Theorem oversize_frame_drops : forall negot p stream its p' rest bad sz,
  negot_ok negot -> c_IOHDRSZ <= p_msize p ->
  frames negot true (S (length stream)) p stream = (its, p', rest, bad) ->
  bad = false -> 4 < len rest -> sz = le_dec (firstn 4 rest) ->
  sz <= p_msize p' /\ len rest < sz.
Proof.
  intros negot p stream its p' rest bad sz _ _ Hfr Hbad H4 ->.
  apply frames_Frames in Hfr; [|apply Nat.lt_succ_diag_r].
  induction Hfr as [p st E| |]; [|discriminate|auto].
  apply next_wait in E as [|]; [lia|assumption].
Qed.

Lemma Frames_items_framed : forall negot p st its p' rest bad it,
  negot_ok negot -> Frames negot p st its p' rest bad -> c_IOHDRSZ <= p_msize p -> In it its ->
  7 <= len (i_frame it) /\ le_dec (firstn 4 (i_frame it)) = len (i_frame it) /\
  len (i_frame it) <= p_msize p.
Proof.
  intros negot p st its p' rest bad it Hneg.
  induction 1 as [| |p st tag m sz its p' rest bad E _ IH]; intros Hms Hin; [destruct Hin..|].
  apply next_got in E as (-> & H7 & Hle & Hsz). destruct (Hneg p m Hms).
  destruct Hin as [<-|Hin]; cbn [i_frame].
  - rewrite (len_firstn _ _ Hle), firstn_firstn. replace (Nat.min 4 _) with 4%nat by lia. auto.
  - destruct IH as (? & ? & ?); auto. repeat split; auto. lia.
Qed.

Theorem delivered_items_framed : forall negot p stream its p' rest bad it,
  negot_ok negot -> c_IOHDRSZ <= p_msize p ->
  frames negot true (S (length stream)) p stream = (its, p', rest, bad) ->
  In it its ->
  7 <= len (i_frame it) /\ le_dec (firstn 4 (i_frame it)) = len (i_frame it) /\ len (i_frame it) <= p_msize p.
Proof.
  intros negot p stream its p' rest bad it Hneg Hms Hfr.
  apply frames_Frames in Hfr; [|apply Nat.lt_succ_diag_r].
  exact (Frames_items_framed _ _ _ _ _ _ _ _ Hneg Hfr Hms).
Qed.
