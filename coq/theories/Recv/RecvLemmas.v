(* The framing specification without fuel: the decision both loops take on the bytes
   they hold (`next`), the relation `Frames` it generates, and one step of `frames`
   and of `inner` in terms of it. *)
From Coq Require Import NArith List Bool Lia.
From V9 Require Import Lib.GoSem Lib.Bytes Lib.ListFacts Gen.Consts Codec.Msg Codec.Unpack Codec.UnpackProofs Recv.Recv.
Import ListNotations.
Local Open Scope N_scope.

Lemma unpack_prefix_ok : forall dotu (st : bytes) t m n,
  le_dec (firstn 4 st) <= len st ->
  unpack dotu (firstn (N.to_nat (le_dec (firstn 4 st))) st) = Ok (t, m, n) ->
  n = le_dec (firstn 4 st) /\ 7 <= n.
Proof.
  intros dotu st t m n Hle H.
  rewrite <- unpack_prefix_only in H by exact Hle.
  apply unpack_ok_shape in H. intuition.
Qed.

(* What either loop does with the bytes it holds: wait for more, drop the
   connection, or take a frame of sz bytes off the front. *)
Inductive decision := Wait | Bad | Got (tag : N) (m : msg) (sz : N).

Definition next (p : params) (st : bytes) : decision :=
  if len st <=? 4 then Wait
  else
    let sz := le_dec (firstn 4 st) in
    if p_msize p <? sz then Bad
    else if len st <? sz then Wait
    else
      match unpack (p_dotu p) (firstn (N.to_nat sz) st) with
      | Ok (tag, m, _) => Got tag m sz
      | _ => Bad
      end.

Lemma next_got : forall p st tag m sz, next p st = Got tag m sz ->
  sz = le_dec (firstn 4 st) /\ 7 <= sz /\ sz <= len st /\ sz <= p_msize p.
Proof.
  intros p st tag m sz. unfold next.
  destruct (len st <=? 4); [discriminate|].
  destruct (N.ltb_spec (p_msize p) (le_dec (firstn 4 st))); [discriminate|].
  destruct (N.ltb_spec (len st) (le_dec (firstn 4 st))) as [|Hge]; [discriminate|].
  destruct (unpack _ _) as [[[t' m'] n]| | |] eqn:U; try discriminate.
  intros [= _ _ <-]. apply unpack_prefix_ok in U as [-> H7]; auto.
Qed.

Lemma next_got_shorter : forall p st tag m sz, next p st = Got tag m sz ->
  (length (skipn (N.to_nat sz) st) < length st)%nat.
Proof.
  intros p st tag m sz E. apply next_got in E as (_ & H7 & Hle & _).
  rewrite skipn_length. unfold len in Hle. lia.
Qed.

Lemma next_wait : forall p st, next p st = Wait ->
  len st <= 4 \/ le_dec (firstn 4 st) <= p_msize p /\ len st < le_dec (firstn 4 st).
Proof.
  intros p st. unfold next.
  destruct (N.leb_spec (len st) 4); [auto|].
  destruct (N.ltb_spec (p_msize p) (le_dec (firstn 4 st))); [discriminate|].
  destruct (N.ltb_spec (len st) (le_dec (firstn 4 st))); [auto|].
  destruct (unpack _ _) as [[[t' m'] n]| | |]; discriminate.
Qed.

Lemma next_app : forall p st more, next p st <> Wait -> next p (st ++ more) = next p st.
Proof.
  intros p st more. unfold next. rewrite len_app.
  destruct (N.leb_spec (len st) 4) as [|H4]; [congruence|].
  rewrite (proj2 (N.leb_gt _ _)) by lia.
  rewrite firstn_app_le by (unfold len in H4; lia).
  destruct (p_msize p <? le_dec (firstn 4 st)); [reflexivity|].
  destruct (N.ltb_spec (len st) (le_dec (firstn 4 st))) as [|Hge]; [congruence|].
  rewrite (proj2 (N.ltb_ge _ _)) by lia.
  rewrite firstn_app_le by (unfold len in Hge; lia). reflexivity.
Qed.

Section Spec.
  Variable negot : params -> msg -> params.

  Lemma frames_step : forall F p st,
    frames negot true (S F) p st =
    match next p st with
    | Wait => ([], p, st, false)
    | Bad => ([], p, st, true)
    | Got tag m sz =>
      let '(its, p', rest, bad) := frames negot true F (negot p m) (skipn (N.to_nat sz) st) in
      (mkItem tag m (firstn (N.to_nat sz) st) :: its, p', rest, bad)
    end.
  Proof.
    intros. cbn [frames andb]. unfold next.
    destruct (len st <=? 4); [reflexivity|].
    destruct (p_msize p <? le_dec (firstn 4 st)); [reflexivity|].
    destruct (len st <? le_dec (firstn 4 st)); [reflexivity|].
    destruct (unpack _ _) as [[[tag m] n]| | |]; reflexivity.
  Qed.

  (* `frames` with enough fuel computes this relation *)
  Inductive Frames : params -> bytes -> list item -> params -> bytes -> bool -> Prop :=
  | Frames_wait : forall p st, next p st = Wait -> Frames p st [] p st false
  | Frames_bad : forall p st, next p st = Bad -> Frames p st [] p st true
  | Frames_got : forall p st tag m sz its p' rest bad,
      next p st = Got tag m sz ->
      Frames (negot p m) (skipn (N.to_nat sz) st) its p' rest bad ->
      Frames p st (mkItem tag m (firstn (N.to_nat sz) st) :: its) p' rest bad.

  Lemma frames_Frames : forall F p st its p' rest bad,
    (length st < F)%nat -> frames negot true F p st = (its, p', rest, bad) ->
    Frames p st its p' rest bad.
  Proof.
    induction F; intros p st its p' rest bad HF H; [lia|].
    rewrite frames_step in H. destruct (next p st) as [| |tag m sz] eqn:E.
    - injection H as <- <- <- <-. apply Frames_wait, E.
    - injection H as <- <- <- <-. apply Frames_bad, E.
    - destruct (frames negot true F _ _) as [[[its0 p0] rest0] bad0] eqn:R.
      injection H as <- <- <- <-. apply Frames_got; [exact E|]. apply IHF; [|exact R].
      apply next_got_shorter in E. lia.
  Qed.

  Lemma Frames_frames : forall p st its p' rest bad, Frames p st its p' rest bad ->
    forall F, (length st < F)%nat -> frames negot true F p st = (its, p', rest, bad).
  Proof.
    induction 1 as [p st E|p st E|p st tag m sz its p' rest bad E _ IH]; intros F HF;
      (destruct F; [lia|]); rewrite frames_step, E; [reflexivity..|].
    rewrite IH; [reflexivity|]. apply next_got_shorter in E. lia.
  Qed.

  (* The frames of a stream that goes on: those of what has arrived, then, unless a
     bad frame was met, those of the bytes left over followed by what arrives later. *)
  Lemma Frames_app : forall p st its p' rest bad more, Frames p st its p' rest bad ->
    if bad then Frames p (st ++ more) its p' (rest ++ more) true
    else forall its2 p2 rest2 bad2, Frames p' (rest ++ more) its2 p2 rest2 bad2 ->
         Frames p (st ++ more) (its ++ its2) p2 rest2 bad2.
  Proof.
    intros p st its p' rest bad more.
    induction 1 as [p st E|p st E|p st tag m sz its p' rest bad E _ IH].
    - auto.
    - apply Frames_bad. rewrite next_app; congruence.
    - assert (G := Frames_got p (st ++ more) tag m sz).
      pose proof (next_got _ _ _ _ _ E) as (_ & _ & Hle & _). unfold len in Hle.
      rewrite next_app, firstn_app_le, skipn_app_le in G by (congruence || lia).
      destruct bad; [|intros its2 p2 rest2 bad2 H2; cbn [app]]; apply G; auto.
  Qed.
End Spec.

Section Inner.
  Variable negot : params -> msg -> params.
  Variable bufmul : N.

  (* the state in which `inner` leaves the loop to wait for more bytes *)
  Definition parked (s : rstate) : rstate :=
    if len (r_acc s) <=? 4 then s
    else mkR (r_acc s)
             (if r_cap s <? le_dec (firstn 4 (r_acc s)) then bufmul * p_msize (r_par s) else r_cap s)
             (r_par s) Open.

  Lemma parked_fields : forall s,
    r_acc (parked s) = r_acc s /\ r_par (parked s) = r_par s /\
    (r_st s = Open -> r_st (parked s) = Open) /\
    (r_cap (parked s) = r_cap s /\ (4 < len (r_acc s) -> le_dec (firstn 4 (r_acc s)) <= r_cap s)
     \/ r_cap (parked s) = bufmul * p_msize (r_par s)).
  Proof.
    intros s. unfold parked. destruct (N.leb_spec (len (r_acc s)) 4).
    - repeat split; auto. left. split; [reflexivity|lia].
    - cbn [r_acc r_par r_st r_cap]. repeat split; auto.
      destruct (N.ltb_spec (r_cap s) (le_dec (firstn 4 (r_acc s)))); auto.
  Qed.

  Lemma inner_step : forall f s,
    inner negot true bufmul (S f) s =
    match next (r_par s) (r_acc s) with
    | Wait => (parked s, [])
    | Bad => (mkR (r_acc s) (r_cap s) (r_par s) ClosedBad, [])
    | Got tag m sz =>
      let '(s', its) := inner negot true bufmul f
        (mkR (skipn (N.to_nat sz) (r_acc s)) (r_cap s - sz) (negot (r_par s) m) Open) in
      (s', mkItem tag m (firstn (N.to_nat sz) (r_acc s)) :: its)
    end.
  Proof.
    intros. cbn [inner andb]. unfold next, parked.
    destruct (len (r_acc s) <=? 4); [reflexivity|].
    destruct (p_msize (r_par s) <? le_dec (firstn 4 (r_acc s))); [reflexivity|].
    destruct (N.ltb_spec (len (r_acc s)) (le_dec (firstn 4 (r_acc s)))) as [|Hge]; [reflexivity|].
    rewrite (unpack_prefix_only _ _ Hge).
    destruct (unpack _ _) as [[[tag m] n]| | |] eqn:U; try reflexivity.
    apply unpack_prefix_ok in U as [-> _]; [reflexivity|exact Hge].
  Qed.
End Inner.
