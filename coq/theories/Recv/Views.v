(* The receive buffer as memory (srv_conn.go recv, clnt_clnt.go recv): Unpack does not copy - the
   request (reply) handed on keeps slices INTO the receive buffer (Twrite data, Rread data, names).
   The loops read at buf[pos:], advance buf past every delivered message and, when less than msize
   is left, allocate a NEW buffer and copy the pending bytes there.  Question (C13, C09, C14): can
   bytes that arrive later overwrite a message that was already delivered?  Model and proofs. *)
From Coq Require Import List Bool PeanoNat Lia.
Import ListNotations.

Record view := mkView { v_buf : nat; v_off : nat; v_len : nat }.

Record st := mkSt {
  caps : list nat;       (* capacity of every buffer ever allocated; index = identity *)
  cur : nat;             (* the buffer the loop reads into *)
  start : nat;           (* offset of buf[0] inside it (the slice has been advanced past delivered messages) *)
  pos : nat;             (* pending bytes: they occupy [start, start+pos) *)
  views : list view;     (* messages delivered so far *)
  clobbered : bool }.    (* some write overlapped a delivered message *)

Definition init (cap0 : nat) : st := mkSt [cap0] 0 0 0 [] false.

Definition overlaps (b o n : nat) (v : view) : bool :=
  (v_buf v =? b) && (o <? v_off v + v_len v) && (v_off v <? o + n) && (0 <? n) && (0 <? v_len v).

Definition write (s : st) (b o n : nat) : bool := clobbered s || existsb (overlaps b o n) (views s).

Inductive label :=
| LRead (n : nat)          (* conn.Read(buf[pos:]) returned n bytes *)
| LDeliver (sz : nat)      (* a complete message of sz bytes at buf[0:sz] is handed on; buf = buf[sz:] *)
| LRealloc (newcap : nat)  (* less than msize left: b := make(.., newcap); copy(b, buf[0:pos]); buf = b *)
| LCompact.                (* NOT in the code: copy(buf, buf[k:k+pos]) inside the same buffer / rewinding it *)

Definition cap_of (s : st) : nat := nth (cur s) (caps s) 0.

Definition step (allow_compact : bool) (s : st) (l : label) : option st :=
  match l with
  | LRead n =>
    if (0 <? n) && (start s + pos s + n <=? cap_of s)
    then Some (mkSt (caps s) (cur s) (start s) (pos s + n) (views s) (write s (cur s) (start s + pos s) n))
    else None
  | LDeliver sz =>
    if (0 <? sz) && (sz <=? pos s)
    then Some (mkSt (caps s) (cur s) (start s + sz) (pos s - sz) (mkView (cur s) (start s) sz :: views s) (clobbered s))
    else None
  | LRealloc newcap =>
    if pos s <=? newcap
    then Some (mkSt (caps s ++ [newcap]) (length (caps s)) 0 (pos s) (views s) (write s (length (caps s)) 0 (pos s)))
    else None
  | LCompact =>
    if allow_compact
    then Some (mkSt (caps s) (cur s) 0 (pos s) (views s) (write s (cur s) 0 (pos s)))
    else None
  end.

Fixpoint run (ac : bool) (s : st) (ls : list label) : option st :=
  match ls with
  | [] => Some s
  | l :: r => match step ac s l with Some s' => run ac s' r | None => None end
  end.

(* every delivered message lies in a retired buffer, or in the current one strictly before buf[0] *)
Definition Inv (s : st) : Prop :=
  clobbered s = false /\ cur s < length (caps s) /\
  forall v, In v (views s) -> v_buf v < cur s \/ (v_buf v = cur s /\ v_off v + v_len v <= start s).

Lemma inv_init : forall c, Inv (init c).
Proof. intro c. unfold Inv, init; cbn. repeat split; auto. intros v []. Qed.

Lemma no_overlap : forall s b o n,
  (forall v, In v (views s) -> v_buf v < b \/ (v_buf v = b /\ v_off v + v_len v <= o)) ->
  existsb (overlaps b o n) (views s) = false.
Proof.
  intros s b o n H. apply not_true_is_false. intro E. apply existsb_exists in E.
  destruct E as [v [Hin Ho]]. unfold overlaps in Ho.
  rewrite !andb_true_iff in Ho. destruct Ho as [[[[H1 H2] H3] H4] H5].
  apply Nat.eqb_eq in H1. apply Nat.ltb_lt in H2, H3, H4, H5.
  destruct (H v Hin) as [Hlt | [_ Hle]]; lia.
Qed.

(* the invariant's bound on the delivered messages, moved to any later position *)
Lemma views_before : forall s b o, Inv s ->
  cur s < b \/ (cur s = b /\ start s <= o) ->
  forall v, In v (views s) -> v_buf v < b \/ (v_buf v = b /\ v_off v + v_len v <= o).
Proof. intros s b o (_ & _ & Hv) Hb v Hin. specialize (Hv v Hin). lia. Qed.

Lemma step_inv : forall s l s', Inv s -> step false s l = Some s' -> Inv s'.
Proof.
  intros s l s' HI H. pose proof HI as (Hc & Hcur & Hv).
  destruct l as [n | sz | nc | ]; cbn [step] in H.
  - destruct (_ && _); [|discriminate H].
    injection H as <-. unfold Inv, write. cbn [clobbered cur caps views start pos]. rewrite Hc.
    split; [|split; [exact Hcur | exact Hv]].
    apply no_overlap, views_before; [exact HI | lia].
  - destruct (_ && _); [|discriminate H].
    injection H as <-. unfold Inv. cbn [clobbered cur caps views start pos].
    split; [exact Hc | split; [exact Hcur|]].
    intros v [<- | Hin]; [cbn; lia | revert v Hin; apply views_before; [exact HI | lia]].
  - destruct (pos s <=? nc); [|discriminate H].
    injection H as <-. unfold Inv, write. cbn [clobbered cur caps views start pos]. rewrite Hc, app_length.
    split; [|split; [cbn; lia|]]; [apply no_overlap|]; apply views_before; solve [exact HI | lia].
  - discriminate H.
Qed.

Lemma run_inv : forall ls s0 s, Inv s0 -> run false s0 ls = Some s -> Inv s.
Proof.
  induction ls as [|l r IH]; intros s0 s HI H; cbn in H.
  - injection H as <-. exact HI.
  - destruct (step false s0 l) as [s1|] eqn:E; [|discriminate].
    exact (IH _ _ (step_inv _ _ _ HI E) H).
Qed.

Theorem delivered_messages_never_overwritten : forall ls c s,
  run false (init c) ls = Some s -> clobbered s = false.
Proof. intros ls c s H. exact (proj1 (run_inv ls _ _ (inv_init c) H)). Qed.

(* compacting or rewinding inside the same buffer (seeded changes C09c, C13a, C14a) is refuted *)
Theorem compaction_refuted : exists ls s, run true (init 64) ls = Some s /\ clobbered s = true.
Proof. exists [LRead 20; LDeliver 8; LCompact]. eexists. split; vm_compute; reflexivity. Qed.

(* the buffer fills up and is reallocated with pending bytes; messages keep being delivered *)
Example views_run : exists s, run false (init 32) [LRead 30; LDeliver 10; LDeliver 10; LRealloc 32; LRead 20; LDeliver 25; LRead 2; LDeliver 7] = Some s
                              /\ length (views s) = 4 /\ clobbered s = false.
Proof. eexists. split; [vm_compute; reflexivity | split; reflexivity]. Qed.
