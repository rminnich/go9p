(* Lists: update at an index ([upd] of Lib/GoSem.v), the element appended last, [firstn]
   and [skipn] of each other and of a concatenation, and the length [len] of a byte string
   (Lib/Bytes.v). *)
From Coq Require Import NArith List PeanoNat Lia.
From V9 Require Import Lib.GoSem Lib.Bytes.
Import ListNotations.

Lemma upd_length {A} (l : list A) i x : length (upd l i x) = length l.
Proof. revert i; induction l; destruct i; simpl; auto. Qed.

Lemma nth_error_upd {A} (l : list A) i x j :
  nth_error (upd l i x) j =
  if i =? j then match nth_error l i with Some _ => Some x | None => None end
  else nth_error l j.
Proof.
  revert i j; induction l; intros.
  - simpl. destruct (i =? j); destruct i; destruct j; reflexivity.
  - destruct i; destruct j; simpl; try reflexivity. apply IHl.
Qed.

Lemma nth_error_upd_same {A} (l : list A) i x y :
  nth_error l i = Some y -> nth_error (upd l i x) i = Some x.
Proof. intros H. rewrite nth_error_upd, Nat.eqb_refl, H. reflexivity. Qed.

Lemma nth_error_upd_other {A} (l : list A) i j x :
  i <> j -> nth_error (upd l i x) j = nth_error l j.
Proof. intros H. rewrite nth_error_upd. apply Nat.eqb_neq in H. rewrite H. reflexivity. Qed.

Lemma upd_upd {A} (l : list A) i x y : upd (upd l i x) i y = upd l i y.
Proof. revert i; induction l; destruct i; simpl; auto. f_equal. apply IHl. Qed.

Lemma upd_same {A} (l : list A) i x : nth_error l i = Some x -> upd l i x = l.
Proof.
  revert i; induction l; destruct i; simpl; intros H; try discriminate.
  - congruence.
  - f_equal. auto.
Qed.

Lemma upd_app {A} (a : list A) x b y : upd (a ++ x :: b) (length a) y = a ++ y :: b.
Proof. induction a; simpl; congruence. Qed.

Lemma nth_error_lt {A} (l : list A) i x : nth_error l i = Some x -> i < length l.
Proof. intros H. apply nth_error_Some. congruence. Qed.

Lemma nth_error_snoc {A} (l : list A) x j :
  nth_error (l ++ [x]) j = if j =? length l then Some x else nth_error l j.
Proof.
  destruct (Nat.eqb_spec j (length l)) as [->|Hne].
  - rewrite nth_error_app2, Nat.sub_diag by apply le_n. reflexivity.
  - destruct (Nat.lt_ge_cases j (length l)) as [Hlt|Hge]; [apply nth_error_app1; exact Hlt|].
    rewrite (proj2 (nth_error_None l j) Hge). apply nth_error_None. rewrite app_length. cbn [length]. lia.
Qed.

Lemma nth_error_snoc_last {A} (l : list A) x : nth_error (l ++ [x]) (length l) = Some x.
Proof. rewrite nth_error_snoc, Nat.eqb_refl. reflexivity. Qed.

Lemma skipn_add {A} a b (l : list A) : skipn (a + b) l = skipn b (skipn a l).
Proof.
  revert l; induction a; intros; simpl; [reflexivity|].
  destruct l; [destruct b; reflexivity | apply IHa].
Qed.

Lemma firstn_add {A} a b (l : list A) : firstn (a + b) l = firstn a l ++ firstn b (skipn a l).
Proof.
  revert l; induction a as [|a IH]; intros l; [reflexivity|].
  destruct l as [|x l]; [now rewrite skipn_nil, !firstn_nil|].
  cbn [Nat.add firstn skipn app]. now rewrite IH.
Qed.

Lemma tl_skipn {A} k (l : list A) : tl (skipn k l) = skipn (S k) l.
Proof. revert l; induction k as [|k IH]; intros [|h t]; try reflexivity. apply IH. Qed.

Lemma firstn_skipn_firstn {A} a b k (l : list A) :
  a + b <= k -> firstn a (skipn b (firstn k l)) = firstn a (skipn b l).
Proof. intros H. rewrite skipn_firstn_comm, firstn_firstn. f_equal. lia. Qed.

Lemma firstn_app_le {A} n (a b : list A) : n <= length a -> firstn n (a ++ b) = firstn n a.
Proof.
  intros. rewrite firstn_app. replace (n - length a) with 0 by lia. apply app_nil_r.
Qed.

Lemma skipn_app_le {A} n (a b : list A) : n <= length a -> skipn n (a ++ b) = skipn n a ++ b.
Proof.
  intros. rewrite skipn_app. replace (n - length a) with 0 by lia. reflexivity.
Qed.

Lemma firstn_app_exact {A} (a b : list A) n : length a = n -> firstn n (a ++ b) = a.
Proof. intros <-. rewrite firstn_app_le by apply le_n. apply firstn_all. Qed.

Lemma skipn_app_exact {A} (a b : list A) n : length a = n -> skipn n (a ++ b) = b.
Proof. intros <-. rewrite skipn_app_le by apply le_n. now rewrite skipn_all. Qed.

Lemma len_app : forall a b : bytes, len (a ++ b) = (len a + len b)%N.
Proof. intros. unfold len. rewrite app_length. lia. Qed.

Lemma len_nil : len [] = 0%N.
Proof. reflexivity. Qed.

Lemma len_firstn : forall (l : bytes) n, (n <= len l)%N -> len (firstn (N.to_nat n) l) = n.
Proof. intros. unfold len in *. rewrite firstn_length. lia. Qed.
