(* C01 - Wire-format fidelity of the message codec in both dialects.
   Property theorems only: each closed by [exact] of a lemma proved in
   Codec/PackProofs.v / Codec/UnpackProofs.v, followed by Print Assumptions. *)
From Coq Require Import NArith List Bool.
From V9 Require Import Lib.GoSem Lib.Bytes Gen.Consts Codec.Msg Codec.Pack Codec.Unpack
  Codec.PackProofs Codec.UnpackProofs.
Import ListNotations.
Local Open Scope N_scope.

(* the numbering in p9.go (regenerated into Gen/Consts.v on every run) is the protocol's *)
Theorem C01_typ_is_proto : forall m, typ m = proto_typ m.
Proof. exact typ_is_proto. Qed.
Print Assumptions C01_typ_is_proto.

(* For every message type, both dialects, every representable combination of field
   values and ANY previous contents of the buffer: the packet built by the
   constructor is byte for byte the protocol layout. *)
Theorem C01_pack_is_layout : forall dotu m buf,
  wf_msg dotu m = true ->
  len (spec_encode dotu c_NOTAG m) <= len buf ->
  pack dotu m buf = Ok (spec_encode dotu c_NOTAG m).
Proof. exact pack_is_layout. Qed.
Print Assumptions C01_pack_is_layout.

Theorem C01_pack_too_small : forall dotu m buf,
  wf_msg dotu m = true ->
  len buf < len (spec_encode dotu c_NOTAG m) ->
  pack dotu m buf = Err e_bufsmall.
Proof. exact (pack_too_small c_NOTAG). Qed.
Print Assumptions C01_pack_too_small.

(* size[4] equals the packet length, type[1] and tag[2] sit at their wire positions *)
Theorem C01_size_prefix_le : forall dotu t m,
  wf_msg dotu m = true -> wf_u16 t = true ->
  le_dec (firstn 4 (spec_encode dotu t m)) = len (spec_encode dotu t m) /\
  nth_error (spec_encode dotu t m) 4 = Some (proto_typ m) /\
  le_dec (firstn 2 (skipn 5 (spec_encode dotu t m))) = t.
Proof. exact size_prefix_le. Qed.
Print Assumptions C01_size_prefix_le.

(* a tag set afterwards appears at its wire position without disturbing anything else *)
Theorem C01_set_tag_spec : forall dotu t t' m,
  set_tag (spec_encode dotu t m) t' = Ok (spec_encode dotu t' m).
Proof. exact set_tag_spec. Qed.
Print Assumptions C01_set_tag_spec.

(* decoding those bytes in the same dialect yields the same field values and
   consumes exactly the packet, whatever follows it in the buffer *)
Theorem C01_unpack_encode : forall dotu m t rest,
  wf_fields dotu m = true -> wf_size dotu m = true -> wf_u16 t = true ->
  unpack dotu (spec_encode dotu t m ++ rest)
  = Ok (t, norm_msg dotu m, len (spec_encode dotu t m)).
Proof. exact unpack_encode. Qed.
Print Assumptions C01_unpack_encode.

(* stat records on their own *)
Theorem C01_pack_dir_is_spec : forall dotu d,
  wf_dir dotu d = true -> pack_dir dotu d = Ok (spec_stat dotu d).
Proof. exact pack_dir_is_spec. Qed.
Print Assumptions C01_pack_dir_is_spec.

Theorem C01_unpack_dir_encode : forall dotu d rest,
  wf_dir dotu d = true ->
  unpack_dir dotu (spec_stat dotu d ++ rest)
  = Ok (len (spec_stat dotu d) - 2, norm_dir dotu d, rest, len (spec_stat dotu d)).
Proof. exact unpack_dir_encode. Qed.
Print Assumptions C01_unpack_dir_encode.

(* the InitRread / SetRreadCount two-step form *)
Theorem C01_rread_two_step_spec : forall buf n data k,
  all_bytes data = true -> k <= n -> k <= len data ->
  11 + n <= len buf -> 11 + n <= u32max ->
  rread_two_step buf n data k = Ok (spec_encode false c_NOTAG (Rread_ (firstn (N.to_nat k) data))).
Proof. exact rread_two_step_spec. Qed.
Print Assumptions C01_rread_two_step_spec.

(* Non-vacuity: a maximal-ish Twalk, an empty Rread and a plain-9P2000 Rwstat are
   representable, pack to the layout and decode back. *)
Example C01_nonvacuous :
  let m1 := Twalk_ 1 4294967294 [[97;98]; []; [255]] in
  let m2 := Rread_ [] in
  let m3 := Rwstat_ in
  forallb (fun m => wf_msg true m && wf_msg false m) [m1; m2; m3] = true /\
  unpack false (spec_encode false 7 m3) = Ok (7, m3, 7) /\
  pack true m1 (repeat 170 64) = Ok (spec_encode true c_NOTAG m1).
Proof. vm_compute. repeat split. Qed.
