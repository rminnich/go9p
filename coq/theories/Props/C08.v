(* C08 - Independent requests progress independently; shared tags run FIFO.
   Property theorems only (each closed by [exact] of a lemma proved in Srv/Conc*.v, followed by Print Assumptions).
   All statements quantify over EVERY reachable state of the life-cycle LTS Srv/Conc.v: any number of requests,
   any interleaving of the receive, worker, responder and send steps, any behaviour of the implementation. *)
From Coq Require Import NArith List Bool PeanoNat.
From V9 Require Shape.ShapeLib Shape.PDisc.
From V9 Require Race.Facts Shape.PLocks.
From V9 Require Import Lib.GoSem Gen.Consts Srv.Conc Srv.ConcProofs.
Import ListNotations.

(* a Respond in progress can always be completed by steps of that invocation and of the send goroutine alone: no other request, blocked or slow in the implementation, is needed *)
Theorem C08_frame_can_finish : forall c s fi,
  reach c s -> closed s = false -> fi < length (F s) ->
  exists ls s',
    only_labels (fun l => match l with LR x => x =? fi | LSend => true | _ => false end) ls /\
    run c s ls = Some s' /\ frame_pc s' fi = Some RDone.
Proof. exact frame_can_finish. Qed.
Print Assumptions C08_frame_can_finish.

(* a worker that does not wait for the implementation can always take its next step *)
Theorem C08_worker_step_enabled : forall c s r q,
  reach c s -> getq s r = Some q ->
  match q_pc q, q_kind q with
  | WSpawned, _ => step c s (LWStart r) <> None
  | WProc, KFlush _ => step c s (LF1 r) <> None
  | WProc, KVersion => step c s (LV1 r) <> None
  | WProc, KOp => step c s (LOpCall r) <> None /\ forall v, step c s (LReject r v) <> None
  | WF2 _, _ => step c s (LF2 r) <> None
  | WF3 _ _, _ => step c s (LF3 r) <> None
  | WTail, _ => step c s (LWTail r) <> None
  | _, _ => True
  end.
Proof. exact ConcWF.worker_step_enabled. Qed.
Print Assumptions C08_worker_step_enabled.

(* requests sharing a tag: the newer one is not started before the older one's reply has been queued *)
Theorem C08_same_tag_fifo : forall c s a b qb,
  reach c s -> closed s = false ->
  (forall r q, getq s r = Some q -> q_flush q = false /\ q_kind q = KOp) ->
  getq s b = Some qb -> q_after qb = Some a -> q_pc qb <> WWait ->
  on_wire s a + in_outq s a = 1.
Proof. exact same_tag_fifo. Qed.
Print Assumptions C08_same_tag_fifo.

(* ... and their replies appear on the wire in arrival order *)
Theorem C08_same_tag_wire_order : forall c s a b qb i j,
  reach c s ->
  (forall r q, getq s r = Some q -> q_flush q = false /\ q_kind q = KOp) ->
  getq s b = Some qb -> q_after qb = Some a ->
  wire_index s a = Some i -> wire_index s b = Some j -> i < j.
Proof. exact same_tag_wire_order. Qed.
Print Assumptions C08_same_tag_wire_order.

Example C08_nonvacuous :
  exists s, run (mkCfgC 0 true) init
    [LArrive 5 KOp; LArrive 5 KOp; LWStart 0; LOpCall 0; LAnswer 0 1; LR 0; LR 0; LR 0; LSend; LR 0; LR 0; LWStart 1]%N = Some s /\
  map q_pc (R s) = [WInOp; WProc].
Proof. eexists. vm_compute. repeat split. Qed.


(* ---- a modelling assumption about the shape of the CURRENT source (Gen/Shape.v), re-checked on every run ---- *)
(* DecRef and Conn.close release their mutex before they call FidDestroy / ConnClosed; the hand-over of a reply is a select with the done channel *)
Theorem C08_source_calls_the_implementation_without_a_mutex : ShapeLib.disconnect_paths = true.
Proof. exact PDisc.disconnect_paths_ok. Qed.
Print Assumptions C08_source_calls_the_implementation_without_a_mutex.

(* ---- a modelling assumption about the CURRENT source (Gen/LockFacts.v), re-checked on every run ---- *)
(* the steps the models treat as atomic are critical sections in the source: every access to a mutex-protected
   field (request lists and tag groups, flush chains, request status, the client's pending list and error) holds its mutex *)
Theorem C08_source_critical_sections : V9.Race.Facts.violations = [].
Proof. exact V9.Shape.PLocks.sites_comply_ok. Qed.
Print Assumptions C08_source_critical_sections.
