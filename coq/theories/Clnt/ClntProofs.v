(* The C09 and C10 theorems over the client LTS (Clnt/Model.v): tags conserved and distinct, a call
   gets its own reply, error mapping, the shutdown terminates and lets every call return.
   [k] is the size of the tag pool (65535 in the real client: cinit = cinit_n (N.to_nat c_NOTAG)). *)
From Coq Require Import NArith List PeanoNat Lia Permutation.
From V9 Require Import Lib.GoSem Lib.ListFacts Gen.Consts Clnt.Model Clnt.ClntBase Clnt.ClntInv.
Import ListNotations.

Definition is_frame_result (r : result) (f : nat) : Prop :=
  r = ROk f \/ r = RRerr f \/ r = RInvalid f.

Lemma is_frame_fr r f : is_frame_result r f <-> fr_of r = Some f.
Proof.
  unfold is_frame_result. split.
  - intros [-> | [-> | ->]]; reflexivity.
  - destruct r; simpl; intros H; inversion H; subst; auto.
Qed.

(* a caller that holds a request can always move, except that at CWait it needs the signal *)
Lemma caller_enabled {s c x r q} :
  getc s c = Some x -> c_req x = Some r -> nth_error (creqs s) r = Some q ->
  match c_pc x with
  | CLock => cstep s (LLock c) <> None
  | CHandoff => cstep s (LHandoff c) <> None
  | CWait => cr_signalled q = true -> cstep s (LTake c) <> None
  | CFree => cstep s (LFree c) <> None
  | CAlloc | CDone => True
  end.
Proof.
  intros Hg Hr Hq. unfold cstep. rewrite Hg. cbv beta iota. rewrite Hr.
  destruct (c_pc x); trivial; rewrite Hq.
  - destruct (err s); discriminate.
  - destruct (done_closed s); discriminate.
  - intros ->. discriminate.
  - destruct (cr_shared q); [discriminate|]. destruct (N.ltb _ _); discriminate.
Qed.

Lemma enabled_alloc s c x :
  getc s c = Some x -> c_pc x = CAlloc -> cache s ++ pool s <> [] ->
  cstep s (LAlloc c) <> None.
Proof.
  intros Hg Hpc Hne. unfold cstep. rewrite Hg. cbv beta iota. rewrite Hpc.
  destruct (cache s); [|discriminate]. destruct (pool s); [|discriminate]. destruct Hne. reflexivity.
Qed.

Lemma enabled_deliver_close s r rest q :
  reader s = RdClose2 (r :: rest) -> nth_error (creqs s) r = Some q -> waiting (callers s) r ->
  cstep s LDeliver <> None.
Proof.
  intros Hrd Hq Hw. apply waiting_iff in Hw. unfold cstep. rewrite Hrd, Hq. simpl.
  erewrite nth_error_upd_same by eauto. rewrite Hw. discriminate.
Qed.

Lemma enabled_close s :
  (reader s = RdClose0 \/ reader s = RdClose1 \/ reader s = RdClose2 []) -> cstep s LClose <> None.
Proof. intros H. unfold cstep. destruct H as [-> | [-> | ->]]; discriminate. Qed.

(* tags of requests between ReqAlloc and ReqFree, cached Req objects and the pool
   never share a tag: the tags outstanding at any instant are pairwise distinct *)
Theorem tags_distinct : forall k s,
  creach k s -> NoDup (live_tags s ++ cache s ++ pool s).
Proof.
  intros k s H. apply cinv_reach in H. change (NoDup (tags s)).
  eapply Permutation_NoDup; [symmetry; apply (ci_t H)|apply seqN_nodup].
Qed.

(* ... and none is ever lost: tags and request slots are recycled *)
Theorem tag_conservation : forall k s,
  creach k s -> length (live_tags s) + length (cache s) + length (pool s) = k.
Proof.
  intros k s H. apply cinv_reach in H.
  pose proof (Permutation_length (ci_t H)) as L.
  change (tags s) with (live_tags s ++ cache s ++ pool s) in L.
  rewrite seqN_length, !app_length in L. lia.
Qed.

(* hence a call can always get a tag while fewer than k calls are outstanding:
   an unbounded number of calls can be made over one connection *)
Theorem alloc_enabled : forall k s c x,
  creach k s -> getc s c = Some x -> c_pc x = CAlloc ->
  length (live_tags s) < k -> cstep s (LAlloc c) <> None.
Proof.
  intros k s c x H Hg Hpc Hlt. pose proof (tag_conservation _ _ H) as L.
  eapply enabled_alloc; eauto. intros Hnil. apply (f_equal (@length N)) in Hnil.
  rewrite app_length in Hnil. simpl in Hnil. lia.
Qed.

(* the reply a call returns is the frame that was matched with ITS request, that
   frame carried the request's wire tag, and it was received after the request was linked *)
Theorem own_reply : forall k s c x res f,
  creach k s -> getc s c = Some x -> c_res x = Some res -> is_frame_result res f ->
  exists r q, c_req x = Some r /\ nth_error (creqs s) r = Some q /\
              cr_result q = Some res /\ cr_ftag q = Some (cr_wire q) /\ cr_linked q = true /\ f < frames s.
Proof.
  intros k s c x res f H Hg Hres Hf. apply cinv_reach in H. apply is_frame_fr in Hf.
  destruct (caller_res (i_call (ci_i H) Hg) Hres) as (r & q & Hr & Hq & [->|Hc]).
  { discriminate. }
  exists r, q. split; auto. split; auto. split; auto.
  destruct (q_frame (i_req (ci_i H) Hq) (f:=f)) as (? & ? & ?); auto.
  unfold rfr. rewrite Hc. auto.
Qed.

(* a reply frame is given to at most one request *)
Theorem frame_to_one_request : forall k s r1 r2 q1 q2 res1 res2 f,
  creach k s -> nth_error (creqs s) r1 = Some q1 -> nth_error (creqs s) r2 = Some q2 ->
  cr_result q1 = Some res1 -> cr_result q2 = Some res2 ->
  is_frame_result res1 f -> is_frame_result res2 f -> r1 = r2.
Proof.
  intros k s r1 r2 q1 q2 res1 res2 f H H1 H2 R1 R2 F1 F2. apply cinv_reach in H.
  apply is_frame_fr in F1. apply is_frame_fr in F2.
  eapply (i_uf (ci_i H)); eauto; unfold rfr.
  - rewrite R1; eauto.
  - rewrite R2; eauto.
Qed.

(* a frame that is matched goes to the request [find_tag] finds, whose record then holds the result *)
Lemma recv_matched {s tag kd s' r} :
  cstep s (LRecvFrame tag kd) = Some s' -> reader s' = RdDeliver r ->
  find_tag (creqs s) (lst s) tag = Some r /\
  exists q, nth_error (creqs s') r = Some q /\ cr_result q = Some (result_of kd (frames s)).
Proof.
  intros H Hrd. apply cstep_inv in H. inversion H; subst; simpl in Hrd; [discriminate|].
  injection Hrd as <-. split; auto. simpl.
  eexists. split; [eapply nth_error_upd_same; eauto|reflexivity].
Qed.

(* Rerror -> error with the server's text/number; wrong type -> "invalid response"; matching type -> success *)
Theorem error_mapping : forall s tag kd s' r,
  cstep s (LRecvFrame tag kd) = Some s' -> reader s' = RdDeliver r ->
  exists q, nth_error (creqs s') r = Some q /\
            cr_result q = Some (match kd with KMatch => ROk (frames s) | KRerror => RRerr (frames s) | KOther => RInvalid (frames s) end).
Proof.
  intros s tag kd s' r H Hrd. destruct (recv_matched H Hrd) as (_ & q & Hq & Hres).
  exists q. split; [exact Hq|exact Hres].
Qed.

(* requests sharing a tag are completed in the order issued: a frame goes to the
   earliest-linked pending request with that wire tag *)
Theorem shared_tag_fifo : forall s tag kd s' r,
  cstep s (LRecvFrame tag kd) = Some s' -> reader s' = RdDeliver r ->
  exists pre post q, lst s = pre ++ r :: post /\ nth_error (creqs s) r = Some q /\ cr_wire q = tag /\
    forall r' q', In r' pre -> nth_error (creqs s) r' = Some q' -> cr_wire q' <> tag.
Proof.
  intros s tag kd s' r H Hrd. apply find_tag_spec. eapply recv_matched; eauto.
Qed.

(* after a failure later calls are refused without touching the transport *)
Theorem later_calls_refused : forall s c s',
  err s = true -> cstep s (LLock c) = Some s' ->
  sent s' = sent s /\ lst s' = lst s /\
  exists x, getc s' c = Some x /\ c_res x = Some RConnErr.
Proof.
  intros s c s' Herr H. apply cstep_inv in H. inversion H; subst; [|congruence].
  split; auto. split; auto.
  eexists. split; [eapply getc_setc; eauto|]. reflexivity.
Qed.

(* no call returns success unless a complete reply frame with its tag was received *)
Theorem success_needs_whole_reply : forall k s c x f,
  creach k s -> getc s c = Some x -> c_res x = Some (ROk f) -> f < frames s.
Proof.
  intros k s c x f H Hg Hres.
  destruct (own_reply k s c x (ROk f) f H Hg Hres) as (r & q & _ & _ & _ & _ & _ & Hf).
  - left; reflexivity.
  - exact Hf.
Qed.

(* a step writes a result only into a record that has none *)
Lemma upd_result_kept rs n qn qn' r q :
  nth_error rs n = Some qn -> cr_result qn = None \/ cr_result qn' = cr_result qn ->
  nth_error rs r = Some q ->
  exists q', nth_error (upd rs n qn') r = Some q' /\ (cr_result q = None \/ cr_result q' = cr_result q).
Proof.
  intros Hn Hk Hq. destruct (Nat.eq_dec r n) as [->|Hne].
  - exists qn'. split; [eapply nth_error_upd_same; eauto|]. congruence.
  - exists q. rewrite nth_error_upd_other by auto. auto.
Qed.

Lemma result_kept {k s l s' r q} :
  creach k s -> cstep s l = Some s' -> nth_error (creqs s) r = Some q ->
  exists q', nth_error (creqs s') r = Some q' /\ (cr_result q = None \/ cr_result q' = cr_result q).
Proof.
  intros H Hst Hq. apply cinv_reach in H. destruct H as [_ HI _].
  apply cstep_inv in Hst. destruct Hst; simpl.
  all: try (exists q; split; [rewrite ?nth_error_app1 by (eapply nth_error_lt; eauto); exact Hq|auto]; fail).
  all: eapply upd_result_kept; eauto; simpl; auto; left.
  - (* the request of a caller at CLock has no result yet *)
    apply (i_phase HI Hg eq_refl Hq0).
  - (* a pending request has no result before it is matched *)
    apply (q_nores (i_req HI Hq0)); [|rewrite Hrd; discriminate].
    apply in_pendf. left. eapply find_tag_in; eauto.
  - (* nor before the error is reported to it *)
    apply (q_nores (i_req HI Hq0)); rewrite Hrd; [|discriminate].
    apply in_pendf. right. left. auto.
Qed.

(* a reply completely received before the failure is delivered to its caller: the
   result recorded by the match is never replaced by the connection error *)
Theorem matched_result_stable : forall k s l s' r q res,
  creach k s -> cstep s l = Some s' -> nth_error (creqs s) r = Some q ->
  cr_result q = Some res -> res <> RConnErr ->
  exists q', nth_error (creqs s') r = Some q' /\ cr_result q' = Some res.
Proof.
  intros k s l s' r q res H Hst Hq Hres _.
  destruct (result_kept H Hst Hq) as (q' & Hq' & [Hn|He]); [congruence|].
  exists q'. split; auto. congruence.
Qed.

(* a caller holding a request can move once the receive goroutine has finished *)
Lemma busy_progress s c x :
  EInv s -> Inv s -> reader s = RdEnd -> getc s c = Some x ->
  c_pc x <> CAlloc -> c_pc x <> CDone ->
  exists l, c_internal l = true /\ cstep s l <> None.
Proof.
  intros HE HI Hrd Hg Ha Hd.
  destruct (caller_ok_req _ _ _ _ (i_call HI Hg) Ha) as (r & q & Hr & Hq).
  pose proof (i_phase HI Hg Hr Hq) as Hc.
  pose proof (caller_enabled Hg Hr Hq) as Hen.
  pose proof (e_lst HE) as Hl. rewrite Hrd in Hl, Hc. rewrite pendf_idle, Hl in Hc by reflexivity.
  destruct (c_pc x); try congruence.
  - exists (LLock c); auto.
  - exists (LHandoff c); auto.
  - exists (LTake c). split; auto. apply Hen. simpl in Hc. tauto.
  - exists (LFree c); auto.
Qed.

(* once the connection has failed, as long as some call has not returned (or the
   receive goroutine has not finished) the client can take a step by itself:
   nobody waits for a goroutine that is gone *)
Theorem shutdown_progress : forall k s,
  1 <= k -> creach k s -> err s = true ->
  ((exists c x, getc s c = Some x /\ c_pc x <> CDone) \/ reader s <> RdEnd) ->
  exists l, c_internal l = true /\ cstep s l <> None.
Proof.
  intros k s Hk H Herr Hnd. pose proof (cinv_reach _ _ H) as [HE HI _].
  pose proof (e_err HE) as E1. rewrite Herr in E1.
  destruct (reader s) as [| | | |[|r rest]|] eqn:Hrd; try discriminate E1.
  1-3: exists LClose; split; auto; apply enabled_close; auto.
  - (* the owner of the request to be told next hands it over or waits for it *)
    assert (Hin : In r (pendf (lst s) (RdClose2 (r :: rest)))) by (apply in_pendf; right; left; auto).
    pose proof (i_bnd HI Hin) as Hlt.
    destruct (i_own HI Hin) as (c & x & Hg & Hr).
    destruct (nth_error (creqs s) r) as [q|] eqn:Hq; [|apply nth_error_None in Hq; lia].
    pose proof (i_phase HI Hg Hr Hq) as Hc.
    pose proof (caller_enabled Hg Hr Hq) as Hen.
    destruct (c_pc x) eqn:Hpc; simpl in Hc; try tauto.
    + exists (LHandoff c); auto.
    + exists LDeliver. split; auto. eapply enabled_deliver_close; eauto. exists c, x; auto.
  - destruct Hnd as [(c & x & Hg & Hpc)|Hne]; [|congruence].
    rewrite <- Hrd in HI.
    destruct (c_pc x) eqn:Hpcx; try congruence.
    2-5: eapply busy_progress; eauto; congruence.
    destruct (Nat.lt_ge_cases (length (live_tags s)) k) as [Hlt|Hge].
    + exists (LAlloc c). split; auto. eapply alloc_enabled; eauto.
    + (* no tag is free: some other caller holds one *)
      assert (Ht : exists t, In t (live_tags s))
        by (destruct (live_tags s); [simpl in Hge; lia|simpl; eauto]).
      destruct Ht as (t & Ht). rewrite live_tags_eq in Ht. apply in_flat_map in Ht.
      destruct Ht as (y & Hy & Hty). apply In_nth_error in Hy. destruct Hy as (c' & Hc').
      apply (busy_progress s c' y HE HI Hrd Hc'); intros Hy; unfold ltag in Hty; rewrite Hy in Hty; auto.
Qed.

(* ... and it cannot go on for ever: the number of steps the client can take by
   itself after a failure is bounded.  A caller weighs the steps from its place to CDone; the reader
   weighs those to RdEnd, one for each request it has still to tell and one for each stage of closing. *)
Definition steps_left (s : cst) : nat :=
  fold_right (fun x acc => acc + match c_pc x with CAlloc => 5 | CLock => 4 | CHandoff => 3 | CWait => 2 | CFree => 1 | CDone => 0 end) 0 (callers s)
  + match reader s with RdRun => 0 | RdDeliver _ => 1 | RdClose0 => 3 + length (lst s) | RdClose1 => 2 + length (lst s)
                        | RdClose2 todo => 1 + length todo | RdEnd => 0 end.

Theorem shutdown_terminates : forall k s l s',
  creach k s -> c_internal l = true -> cstep s l = Some s' -> steps_left s' < steps_left s.
Proof.
  intros k s l s' H Hint Hst. apply cinv_reach in H. destruct H as [[E1 E2] _ _].
  apply cstep_inv in Hst. unfold steps_left.
  destruct Hst; try discriminate Hint; simpl.
  (* a caller moves: the reader's share stays, unless a request is linked while the reader closes *)
  all: try (apply Nat.add_lt_le_mono; [eapply weight_upd; [exact Hg|simpl; lia]|]).
  all: try rewrite Hrd; simpl; try lia.
  rewrite He in E1. destruct (reader s); simpl in *; try discriminate; lia.
Qed.

Lemma err_mono s l s' : cstep s l = Some s' -> err s = true -> err s' = true.
Proof. intros H Herr. apply cstep_inv in H. destruct H; simpl; auto. Qed.

Lemma finished_dec s :
  ((forall c x, getc s c = Some x -> c_pc x = CDone) /\ reader s = RdEnd) \/
  ((exists c x, getc s c = Some x /\ c_pc x <> CDone) \/ reader s <> RdEnd).
Proof.
  destruct (Forall_Exists_dec (fun x => c_pc x = CDone)
              (fun x => ltac:(decide equality) : {c_pc x = CDone} + {c_pc x <> CDone}) (callers s)) as [F|E].
  - destruct (reader s); try (right; right; discriminate).
    left. split; auto. intros c x Hg. apply (proj1 (Forall_forall _ _) F). eapply nth_error_In; exact Hg.
  - right. left. apply Exists_exists in E. destruct E as (x & Hx & Hn).
    apply In_nth_error in Hx. destruct Hx as (c & Hc). eauto.
Qed.

(* so every outstanding and every later call can return: after a failure some run of internal
   steps ends with all callers done and the receive goroutine finished.  Progress and the bound
   together, by induction on the bound. *)
Theorem all_calls_return : forall k s,
  1 <= k -> creach k s -> err s = true ->
  exists ls s', Forall (fun l => c_internal l = true) ls /\ crun s ls = Some s' /\
                (forall c x, getc s' c = Some x -> c_pc x = CDone) /\ reader s' = RdEnd.
Proof.
  intros k s Hk. remember (steps_left s) as n eqn:En. revert s En.
  induction n as [n IH] using (well_founded_induction Nat.lt_wf_0). intros s -> Hreach Herr.
  destruct (finished_dec s) as [[Hd Hrd]|Hnd].
  { exists [], s. repeat split; auto. }
  destruct (shutdown_progress k s Hk Hreach Herr Hnd) as (l & Hl & Hen).
  destruct (cstep s l) as [s1|] eqn:Hst; [|congruence].
  destruct (IH _ (shutdown_terminates _ _ _ _ Hreach Hl Hst) s1 eq_refl) as (ls & s' & Hf & Hrun & Hdone).
  - eapply creach_step; eauto.
  - eapply err_mono; eauto.
  - exists (l :: ls), s'. repeat split; auto; try apply Hdone. simpl. rewrite Hst. auto.
Qed.
