(* List facts used by the client proofs, and the inversion of a client step. *)
From Coq Require Import NArith List Bool PeanoNat Lia Permutation.
From V9 Require Import Lib.GoSem Lib.ListFacts Gen.Consts Clnt.Model.
Import ListNotations.

Lemma nth_upd_cases {A} (l : list A) i j x y :
  nth_error (upd l i x) j = Some y -> (j = i /\ y = x) \/ (j <> i /\ nth_error l j = Some y).
Proof.
  rewrite nth_error_upd. destruct (Nat.eqb_spec i j) as [->|Hn]; [left|right; auto].
  destruct (nth_error l j); [|discriminate]. split; congruence.
Qed.

Lemma nth_app_cases {A} (l : list A) x j y :
  nth_error (l ++ [x]) j = Some y -> (j = length l /\ y = x) \/ nth_error l j = Some y.
Proof.
  rewrite nth_error_snoc. destruct (Nat.eqb_spec j (length l)); auto. intros [= <-]. auto.
Qed.

Lemma nth_app_old {A} (l : list A) x j : j < length l -> nth_error (l ++ [x]) j = nth_error l j.
Proof. intros. apply nth_error_app1; auto. Qed.

Lemma weight_upd {A} (w : A -> nat) l c x x' :
  nth_error l c = Some x -> w x' < w x ->
  fold_right (fun x acc => acc + w x) 0 (upd l c x') < fold_right (fun x acc => acc + w x) 0 l.
Proof.
  revert c; induction l as [|h l IH]; intros [|c]; simpl; intros H Hw; try discriminate.
  - injection H as ->. lia.
  - specialize (IH _ H Hw). lia.
Qed.

(* [key] is injective on the positions of [l] where it is defined *)
Definition keyed {A B} (key : A -> option B) (l : list A) : Prop :=
  forall i j x y k, nth_error l i = Some x -> nth_error l j = Some y ->
    key x = Some k -> key y = Some k -> i = j.

Lemma keyed_upd {A B} (key : A -> option B) l i x' :
  keyed key l ->
  (forall j y k, j <> i -> nth_error l j = Some y -> key x' = Some k -> key y <> Some k) ->
  keyed key (upd l i x').
Proof.
  intros K Hx a b x y k Ha Hb Kx Ky.
  apply nth_upd_cases in Ha. apply nth_upd_cases in Hb.
  destruct Ha as [[-> ->]|[Na Ha]]; destruct Hb as [[-> ->]|[Nb Hb]]; auto.
  - destruct (Hx _ _ _ Nb Hb Kx Ky).
  - destruct (Hx _ _ _ Na Ha Ky Kx).
  - eauto.
Qed.

Lemma keyed_app {A B} (key : A -> option B) l x' :
  keyed key l ->
  (forall j y k, nth_error l j = Some y -> key x' = Some k -> key y <> Some k) ->
  keyed key (l ++ [x']).
Proof.
  intros K Hx a b x y k Ha Hb Kx Ky.
  apply nth_app_cases in Ha. apply nth_app_cases in Hb.
  destruct Ha as [[-> ->]|Ha]; destruct Hb as [[-> ->]|Hb]; auto.
  - destruct (Hx _ _ _ Hb Kx Ky).
  - destruct (Hx _ _ _ Ha Ky Kx).
  - eauto.
Qed.

Lemma remove_first_perm l r : In r l -> Permutation (r :: remove_first l r) l.
Proof.
  induction l as [|a l IH]; simpl; intros H. contradiction.
  destruct (Nat.eqb_spec a r) as [->|Hne]. reflexivity.
  rewrite perm_swap. constructor. apply IH. destruct H; [contradiction|auto].
Qed.

Lemma length_remove_first l r : In r l -> S (length (remove_first l r)) = length l.
Proof. intros H. apply (Permutation_length (remove_first_perm l r H)). Qed.

Lemma find_tag_spec rs l tag r :
  find_tag rs l tag = Some r ->
  exists pre post q, l = pre ++ r :: post /\ nth_error rs r = Some q /\ cr_wire q = tag /\
    forall r' q', In r' pre -> nth_error rs r' = Some q' -> cr_wire q' <> tag.
Proof.
  induction l as [|a l IH]; simpl; intros H. discriminate.
  destruct (nth_error rs a) as [q|] eqn:Hq; [destruct (N.eqb_spec (cr_wire q) tag)|].
  1: { injection H as <-. exists [], l, q. simpl. repeat split; auto. }
  all: destruct (IH H) as (pre & post & q0 & -> & ? & ? & Hpre);
    exists (a :: pre), post, q0; repeat split; auto;
    intros r' q' [<-|Hin] Hr'; [congruence|eauto].
Qed.

Lemma find_tag_in {rs l tag r} : find_tag rs l tag = Some r -> In r l.
Proof.
  intros H. apply find_tag_spec in H. destruct H as (pre & post & q & -> & _). apply in_elt.
Qed.

Lemma flat_map_ext_in' {A B} (f g : A -> list B) l :
  (forall x, In x l -> f x = g x) -> flat_map f l = flat_map g l.
Proof.
  induction l; simpl; intros H; auto. rewrite H by auto. rewrite IHl; auto.
Qed.

Lemma flat_map_upd_perm {A B} (f : A -> list B) l c x x' :
  nth_error l c = Some x ->
  Permutation (f x ++ flat_map f (upd l c x')) (f x' ++ flat_map f l).
Proof.
  revert c; induction l as [|h l IH]; intros [|c]; simpl; intros H; try discriminate.
  - injection H as ->. apply Permutation_app_swap_app.
  - specialize (IH _ H).
    rewrite Permutation_app_swap_app. rewrite IH.
    apply Permutation_app_swap_app.
Qed.

Definition fr_of (r : result) : option nat :=
  match r with ROk f | RRerr f | RInvalid f => Some f | RConnErr => None end.

Definition rfr (q : creq) : option nat :=
  match cr_result q with Some res => fr_of res | None => None end.

Lemma fr_of_result_of k f : fr_of (result_of k f) = Some f.
Proof. destruct k; reflexivity. Qed.

Definition waiting (cs : list caller) (r : nat) : Prop :=
  exists c x, nth_error cs c = Some x /\ c_pc x = CWait /\ c_req x = Some r.

Lemma waiting_iff cs r :
  existsb (fun x => match c_pc x, c_req x with CWait, Some r' => r' =? r | _, _ => false end) cs = true <->
  waiting cs r.
Proof.
  rewrite existsb_exists. split.
  - intros (x & Hin & Hx). apply In_nth_error in Hin. destruct Hin as (c & Hc). exists c, x.
    destruct (c_pc x); try discriminate. destruct (c_req x); try discriminate.
    apply Nat.eqb_eq in Hx. subst. auto.
  - intros (c & x & Hc & Hpc & Hr). exists x. split; [eapply nth_error_In; eauto|].
    rewrite Hpc, Hr. apply Nat.eqb_refl.
Qed.

(* what the reader writes into a record when it signals the request, with the result it reports *)
Definition signal (q : creq) (res : option result) : creq :=
  mkCreq (cr_tag q) (cr_wire q) (cr_shared q) (cr_linked q) (cr_sent q) res true (cr_ftag q).

(* the shapes of a step from the state with the fields [po ca rs ls e d sn fr rd cs]: one for each
   way through [cstep], with the tests that select it.  A caller that moves is given by its fields:
   its place, its request, its result, its version flag. *)
Section Shape.
Variables (po ca : list N) (rs : list creq) (ls : list nat) (e d : bool) (sn : list nat) (fr : nat)
  (rd : rdr) (cs : list caller).

Inductive shape : clabel -> cst -> Prop :=
| sh_newshared v t :
    shape (LNewCall v (Some t))
      (mkCst po ca (rs ++ [mkCreq t t true false false None false None]) ls e d sn fr rd
         (cs ++ [mkCaller CLock (Some (length rs)) None false]))
| sh_newcall v :
    shape (LNewCall v None) (mkCst po ca rs ls e d sn fr rd (cs ++ [mkCaller CAlloc None None v]))
| sh_alloc_cache c rq res v t rest
    (Hg : nth_error cs c = Some (mkCaller CAlloc rq res v)) (Hca : ca = t :: rest) :
    shape (LAlloc c)
      (mkCst po rest (rs ++ [mkCreq t (if v then c_NOTAG else t) false false false None false None])
         ls e d sn fr rd (upd cs c (mkCaller CLock (Some (length rs)) None v)))
| sh_alloc_pool c rq res v t rest
    (Hg : nth_error cs c = Some (mkCaller CAlloc rq res v)) (Hca : ca = []) (Hpo : po = t :: rest) :
    shape (LAlloc c)
      (mkCst rest [] (rs ++ [mkCreq t (if v then c_NOTAG else t) false false false None false None])
         ls e d sn fr rd (upd cs c (mkCaller CLock (Some (length rs)) None v)))
| sh_lock_refused c r res v q
    (Hg : nth_error cs c = Some (mkCaller CLock (Some r) res v))
    (Hq : nth_error rs r = Some q) (He : e = true) :
    shape (LLock c)
      (mkCst po ca rs ls e d sn fr rd (upd cs c (mkCaller CFree (Some r) (Some RConnErr) v)))
| sh_lock_linked c r res v q
    (Hg : nth_error cs c = Some (mkCaller CLock (Some r) res v))
    (Hq : nth_error rs r = Some q) (He : e = false) :
    shape (LLock c)
      (mkCst po ca
         (upd rs r (mkCreq (cr_tag q) (cr_wire q) (cr_shared q) true false None false None))
         (ls ++ [r]) e d sn fr rd (upd cs c (mkCaller CHandoff (Some r) None v)))
| sh_handoff_closed c r res v q
    (Hg : nth_error cs c = Some (mkCaller CHandoff (Some r) res v))
    (Hq : nth_error rs r = Some q) (Hdc : d = true) :
    shape (LHandoff c) (mkCst po ca rs ls e d sn fr rd (upd cs c (mkCaller CWait (Some r) None v)))
| sh_handoff_sent c r res v q
    (Hg : nth_error cs c = Some (mkCaller CHandoff (Some r) res v))
    (Hq : nth_error rs r = Some q) (Hdc : d = false) :
    shape (LHandoff c)
      (mkCst po ca
         (upd rs r (mkCreq (cr_tag q) (cr_wire q) (cr_shared q) (cr_linked q) true (cr_result q)
                      (cr_signalled q) (cr_ftag q)))
         ls e d (sn ++ [r]) fr rd (upd cs c (mkCaller CWait (Some r) None v)))
| sh_recv_unexpected tag k
    (Hrd : rd = RdRun) (Hft : find_tag rs ls tag = None) :
    shape (LRecvFrame tag k) (mkCst po ca rs ls true d sn (S fr) RdClose0 cs)
| sh_recv_matched tag k r q
    (Hrd : rd = RdRun) (Hft : find_tag rs ls tag = Some r) (Hq : nth_error rs r = Some q) :
    shape (LRecvFrame tag k)
      (mkCst po ca
         (upd rs r (mkCreq (cr_tag q) (cr_wire q) (cr_shared q) (cr_linked q) (cr_sent q)
                      (Some (result_of k fr)) false (Some tag)))
         (remove_first ls r) e d sn (S fr) (RdDeliver r) cs)
| sh_deliver_reply r q
    (Hrd : rd = RdDeliver r) (Hq : nth_error rs r = Some q) (Hw : waiting cs r) :
    shape LDeliver (mkCst po ca (upd rs r (signal q (cr_result q))) ls e d sn fr RdRun cs)
| sh_deliver_error r rest q
    (Hrd : rd = RdClose2 (r :: rest)) (Hq : nth_error rs r = Some q) (Hw : waiting cs r) :
    shape LDeliver (mkCst po ca (upd rs r (signal q (Some RConnErr))) ls e d sn fr (RdClose2 rest) cs)
| sh_fail (Hrd : rd = RdRun) :
    shape LFail (mkCst po ca rs ls true d sn fr RdClose0 cs)
| sh_close0 (Hrd : rd = RdClose0) :
    shape LClose (mkCst po ca rs ls e true sn fr RdClose1 cs)
| sh_close1 (Hrd : rd = RdClose1) :
    shape LClose (mkCst po ca rs [] e d sn fr (RdClose2 ls) cs)
| sh_close2 (Hrd : rd = RdClose2 []) :
    shape LClose (mkCst po ca rs ls e d sn fr RdEnd cs)
| sh_take c r res v q
    (Hg : nth_error cs c = Some (mkCaller CWait (Some r) res v))
    (Hq : nth_error rs r = Some q) (Hsg : cr_signalled q = true) :
    shape (LTake c) (mkCst po ca rs ls e d sn fr rd (upd cs c (mkCaller CFree (Some r) (cr_result q) v)))
| sh_free_shared c r res v q
    (Hg : nth_error cs c = Some (mkCaller CFree (Some r) res v))
    (Hq : nth_error rs r = Some q) (Hsh : cr_shared q = true) :
    shape (LFree c) (mkCst po ca rs ls e d sn fr rd (upd cs c (mkCaller CDone (Some r) res v)))
| sh_free_cache c r res v q
    (Hg : nth_error cs c = Some (mkCaller CFree (Some r) res v))
    (Hq : nth_error rs r = Some q) (Hsh : cr_shared q = false)
    (Hcap : (N.of_nat (length ca) <? c_cap_clnt_reqchan)%N = true) :
    shape (LFree c)
      (mkCst po (ca ++ [cr_tag q]) rs ls e d sn fr rd (upd cs c (mkCaller CDone (Some r) res v)))
| sh_free_pool c r res v q
    (Hg : nth_error cs c = Some (mkCaller CFree (Some r) res v))
    (Hq : nth_error rs r = Some q) (Hsh : cr_shared q = false)
    (Hcap : (N.of_nat (length ca) <? c_cap_clnt_reqchan)%N = false) :
    shape (LFree c)
      (mkCst (po ++ [cr_tag q]) ca rs ls e d sn fr rd (upd cs c (mkCaller CDone (Some r) res v))).
End Shape.

Definition cshape (s : cst) : clabel -> cst -> Prop :=
  shape (pool s) (cache s) (creqs s) (lst s) (err s) (done_closed s) (sent s) (frames s) (reader s)
    (callers s).

(* every successful step has one of these shapes: by cases on each test [cstep] makes, outermost
   first.  LDeliver is taken apart by hand: when the error is reported the record is written twice
   and read back in between, and the shape gives the record that is written last. *)
Lemma cstep_inv s l s' : cstep s l = Some s' -> cshape s l s'.
Proof.
  unfold cstep. destruct l.
  6: { destruct (reader s) as [|r| | |[|r rest]|] eqn:Hrd; try discriminate;
       destruct (nth_error (creqs s) r) as [q|] eqn:Hq; try discriminate;
       unfold set_reader, setr; simpl.
       2: erewrite nth_error_upd_same by eauto.
       all: destruct (existsb _ _) eqn:Hw; [|discriminate]; apply waiting_iff in Hw; intros [= <-].
       2: rewrite upd_upd.
       all: unfold cshape; econstructor; eauto. }
  all: try (destruct (getc s c) as [[pc rq res v]|] eqn:Hg; [cbn [c_pc c_req c_res c_version]|discriminate]).
  all: repeat match goal with
              | |- match ?e with _ => _ end = Some _ -> _ => destruct e eqn:?; try discriminate
              end.
  all: intros [= <-]; unfold cshape; econstructor; eauto.
Qed.

Lemma getc_setc s c x y : getc s c = Some y -> getc (setc s c x) c = Some x.
Proof. apply nth_error_upd_same. Qed.
