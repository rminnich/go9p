(* Clnt.Read / Clnt.Write and the File helpers of Clnt/IO.v against pread / pwrite on the file's
   content: one chunk (read_exact, write_exact) and the chunking loops for any sufficient fuel
   (readn_gen, written_gen) (C14). *)
From Coq Require Import NArith List Bool PeanoNat Lia.
From V9 Require Import Lib.GoSem Lib.Bytes Lib.ListFacts Gen.Consts Clnt.IO.
Import ListNotations.
Local Open Scope N_scope.

Lemma len_app : forall a b, len (a ++ b) = len a + len b.
Proof. exact ListFacts.len_app. Qed.

Lemma len_cons_pos : forall x (d : bytes), 1 <= len (x :: d).
Proof. intros. unfold len. cbn [length]. lia. Qed.

(* the clamps of the Go code are minima *)
Lemma clamp_min : forall a b, (if a <? b then a else b) = N.min a b.
Proof. intros. destruct (N.ltb_spec a b); lia. Qed.

Lemma firstn_clamp : forall (data : bytes) a,
  (if a <? len data then firstn (N.to_nat a) data else data) = firstn (N.to_nat (N.min a (len data))) data.
Proof.
  intros. unfold len. destruct (N.ltb_spec a (N.of_nat (length data))).
  - rewrite N.min_l by lia. reflexivity.
  - rewrite firstn_all2 by lia. reflexivity.
Qed.

(* what a write leaves in front of its data: the file up to the offset, filled up with zeros *)
Definition padded (file : bytes) (o : nat) : bytes := firstn o file ++ repeat 0 (o - length file).

Lemma padded_length : forall file o, length (padded file o) = o.
Proof. intros. unfold padded. rewrite app_length, firstn_length, repeat_length. lia. Qed.

Lemma pwrite_cases : forall file off data,
  data = [] /\ pwrite file off data = file \/
  data <> [] /\ pwrite file off data =
    padded file (N.to_nat off) ++ data ++ skipn (N.to_nat off + length data) file.
Proof.
  intros file off [|x d]; [left|right]; split; try reflexivity; try discriminate.
  unfold padded. rewrite <- app_assoc. reflexivity.
Qed.

(* POSIX laws of the reference file *)
Theorem pread_beyond_eof : forall file off cnt, len file <= off -> pread file off cnt = [].
Proof.
  intros file off cnt H. unfold pread.
  rewrite skipn_all2 by (unfold len in H; lia). apply firstn_nil.
Qed.

Theorem pread_length : forall file off cnt,
  len (pread file off cnt) = N.min cnt (len file - off).
Proof.
  intros. unfold pread, len. rewrite firstn_length, skipn_length. lia.
Qed.

Theorem pread_pwrite_same : forall file off data,
  pread (pwrite file off data) off (len data) = data.
Proof.
  intros file off data. destruct (pwrite_cases file off data) as [[-> ->]|[_ ->]]; [reflexivity|].
  unfold pread, len. rewrite Nat2N.id, skipn_app_exact by apply padded_length.
  apply firstn_app_exact. reflexivity.
Qed.

Theorem pwrite_length : forall file off data,
  data <> [] -> len (pwrite file off data) = N.max (len file) (off + len data).
Proof.
  intros file off data Hne. destruct (pwrite_cases file off data) as [[? _]|[_ ->]]; [contradiction|].
  unfold len. rewrite !app_length, padded_length, skipn_length. lia.
Qed.

(* bytes outside the written range keep their value *)
Theorem pwrite_outside : forall file off data i,
  (i < off \/ off + len data <= i) -> i < len file ->
  nth_error (pwrite file off data) (N.to_nat i) = nth_error file (N.to_nat i).
Proof.
  intros file off data i Hi Hlen.
  destruct (pwrite_cases file off data) as [[_ ->]|[_ ->]]; [reflexivity|].
  unfold len in *. destruct Hi as [Hi|Hi].
  - (* before the offset both sides read the first [off] bytes of the file *)
    rewrite <- (firstn_skipn (N.to_nat off) file) at 3. unfold padded.
    rewrite <- app_assoc, !nth_error_app1 by (rewrite firstn_length; lia). reflexivity.
  - (* behind the data both read what the file holds from there on *)
    rewrite <- (firstn_skipn (N.to_nat off + length data) file) at 3.
    rewrite app_assoc, !nth_error_app2; rewrite ?app_length, ?padded_length, ?firstn_length; try lia.
    f_equal. lia.
Qed.

(* a write that starts where the list [p] ends keeps [p] *)
Lemma pwrite_at : forall (p t : bytes) off data,
  length p = N.to_nat off -> data <> [] ->
  pwrite (p ++ t) off data = p ++ data ++ skipn (length data) t.
Proof.
  intros p t off data Hp Hne.
  destruct (pwrite_cases (p ++ t) off data) as [[? _]|[_ ->]]; [contradiction|].
  unfold padded. rewrite firstn_app_exact, skipn_add, skipn_app_exact by auto.
  replace (N.to_nat off - length (p ++ t))%nat with O by (rewrite app_length; lia).
  cbn [repeat]. now rewrite app_nil_r.
Qed.

Theorem pwrite_app : forall file off a b,
  pwrite (pwrite file off a) (off + len a) b = pwrite file off (a ++ b).
Proof.
  intros file off a b.
  destruct b as [|y b]; [rewrite app_nil_r; reflexivity|].
  destruct (pwrite_cases file off a) as [[-> ->]|[Ha ->]].
  { rewrite len_nil, N.add_0_r. reflexivity. }
  destruct (pwrite_cases file off (a ++ y :: b)) as [[Hab _]|[_ ->]].
  { apply app_eq_nil in Hab. tauto. }
  rewrite app_assoc, pwrite_at by (discriminate || (rewrite app_length, padded_length; unfold len; lia)).
  rewrite <- skipn_add, app_length, Nat.add_assoc, <- !app_assoc. reflexivity.
Qed.

Definition sane (msize iounit : N) : Prop :=
  c_IOHDRSZ < msize /\ msize <= u32max /\ 1 <= iounit /\ iounit <= msize - c_IOHDRSZ.

(* Clnt.Open never yields more than a frame can carry *)
Lemma open_iounit_le : forall msize r, open_iounit msize r <= msize - c_IOHDRSZ.
Proof.
  intros. unfold open_iounit.
  destruct (N.eqb_spec r 0); cbn [orb]; [lia|].
  destruct (N.ltb_spec (msize - c_IOHDRSZ) r); lia.
Qed.

(* Clnt.Open always yields a usable iounit *)
Theorem open_iounit_sane : forall msize r,
  c_IOHDRSZ < msize -> msize <= u32max -> sane msize (open_iounit msize r).
Proof.
  intros msize r H1 H2. repeat split; auto using open_iounit_le.
  unfold open_iounit. destruct (N.eqb_spec r 0); cbn [orb]; [lia|].
  destruct (N.ltb_spec (msize - c_IOHDRSZ) r); lia.
Qed.

(* the two tests srv.read / srv.write and ReadAt / WriteAt make: a count within the iounit and
   an offset that is not negative pass both *)
Lemma guards_pass : forall {A} msize iounit n off (e1 e2 v : res A),
  sane msize iounit -> n <= iounit -> off < two63 ->
  (if (msize + two32 - c_IOHDRSZ) mod two32 <? n then e1 else if two63 <=? off then e2 else v) = v.
Proof.
  intros A msize iounit n off e1 e2 v (H1 & H2 & _ & Hs) Hn Hoff.
  replace ((msize + two32 - c_IOHDRSZ) mod two32) with (msize - c_IOHDRSZ)
    by (apply N.mod_unique with (q := 1); unfold c_IOHDRSZ, u32max, two32 in *; lia).
  destruct (N.ltb_spec (msize - c_IOHDRSZ) n); [lia|]. destruct (N.leb_spec two63 off); [lia|reflexivity].
Qed.

Lemma ufs_read_ok : forall msize iounit file off cnt,
  sane msize iounit -> cnt <= iounit -> off < two63 ->
  ufs_read msize file off cnt = Ok (pread file off cnt).
Proof. intros. eapply guards_pass; eauto. Qed.

Lemma ufs_write_ok : forall msize iounit file off data,
  sane msize iounit -> len data <= iounit -> off < two63 ->
  ufs_write msize file off data = Ok (len data, pwrite file off data).
Proof. intros. eapply guards_pass; eauto. Qed.

(* the bytes obtained by Clnt.Read equal the corresponding bytes of the file *)
Theorem read_exact : forall msize iounit file off cnt,
  sane msize iounit -> off < two63 ->
  clnt_read msize iounit file off cnt = Ok (pread file off (N.min cnt iounit)).
Proof.
  intros msize iounit file off cnt Hs Hoff. unfold clnt_read.
  rewrite clamp_min, N.min_comm. apply (ufs_read_ok _ iounit); auto. lia.
Qed.

(* File.Read advances the offset by exactly the bytes returned *)
Theorem seqread_exact : forall msize iounit file n offset,
  sane msize iounit -> offset < two63 ->
  file_read msize iounit file n offset =
  match pread file offset (N.min n iounit) with
  | [] => (RdEOF, offset)
  | d => (RdOk d, offset + len d)
  end.
Proof.
  intros msize iounit file n offset Hs Hoff. unfold file_read, file_readat.
  rewrite read_exact by assumption.
  destruct (pread file offset (N.min n iounit)); reflexivity.
Qed.

Lemma pread_add : forall file off a b,
  pread file off (a + b) = pread file off a ++ pread file (off + a) b.
Proof.
  intros. unfold pread. rewrite !N2Nat.inj_add, firstn_add, skipn_add. reflexivity.
Qed.

Lemma pread_split : forall file off k n, k <= n ->
  pread file off n =
  pread file off k ++ pread file (off + len (pread file off k)) (n - len (pread file off k)).
Proof.
  intros file off k n Hk.
  destruct (N.le_gt_cases (off + k) (len file)) as [Hin|Hout].
  - assert (Hl : len (pread file off k) = k) by (rewrite pread_length; lia).
    rewrite Hl, <- pread_add. f_equal. lia.
  - assert (Hl := pread_length file off k).
    rewrite (pread_beyond_eof file (off + len (pread file off k))) by lia.
    rewrite app_nil_r. unfold pread.
    rewrite !firstn_all2; [reflexivity| |]; rewrite skipn_length; unfold len in *; lia.
Qed.

Lemma readn_gen : forall msize iounit file, sane msize iounit ->
  forall (fuel : nat) n off, (N.to_nat n < fuel)%nat -> off + n < two63 ->
  file_readn fuel msize iounit file n off = Ok (pread file off n).
Proof.
  intros msize iounit file Hs. induction fuel as [|f IH]; intros n off Hf Hoff; [lia|].
  cbn [file_readn]. destruct (N.eqb_spec n 0) as [->|Hn]; [reflexivity|].
  unfold file_readat. rewrite read_exact by (assumption || lia).
  assert (Hi : 1 <= iounit) by apply Hs.
  set (k := N.min n iounit). assert (Hk : 1 <= k <= n) by lia.
  assert (Hl := pread_length file off k).
  destruct (pread file off k) as [|x d] eqn:E.
  - rewrite len_nil in Hl. rewrite pread_beyond_eof by lia. reflexivity.
  - rewrite <- E in *. assert (Hpos : 1 <= len (pread file off k))
      by (rewrite E; apply len_cons_pos).
    rewrite IH by lia. cbn [bind]. f_equal. symmetry. apply pread_split. lia.
Qed.

(* File.Readn transfers exactly the bytes requested up to end of file, for any chunking *)
Theorem readn_exact : forall msize iounit file n off,
  sane msize iounit -> off + n < two63 ->
  file_readn (S (N.to_nat n)) msize iounit file n off = Ok (pread file off n).
Proof.
  intros msize iounit file n off Hs Hoff. apply readn_gen; [exact Hs|lia|exact Hoff].
Qed.

(* Clnt.Write hands on the first min (len data) iounit bytes *)
Lemma write_chunk : forall msize iounit file off data,
  sane msize iounit -> off < two63 ->
  let n := N.min (len data) iounit in
  clnt_write msize iounit file off data = Ok (n, pwrite file off (firstn (N.to_nat n) data)).
Proof.
  intros msize iounit file off data Hs Hoff n. unfold clnt_write.
  rewrite firstn_clamp, N.min_comm. fold n.
  rewrite (ufs_write_ok _ iounit), len_firstn; auto; rewrite ?len_firstn; lia.
Qed.

Theorem write_exact : forall msize iounit file off data,
  sane msize iounit -> off < two63 ->
  clnt_write msize iounit file off data =
  Ok (N.min (len data) iounit, pwrite file off (firstn (N.to_nat iounit) data)).
Proof.
  intros msize iounit file off data Hs Hoff. rewrite write_chunk by assumption. cbv zeta.
  destruct (N.le_gt_cases iounit (len data)).
  - rewrite N.min_r by assumption. reflexivity.
  - rewrite !firstn_all2; [reflexivity| |]; unfold len in *; lia.
Qed.

Lemma written_gen : forall msize iounit, sane msize iounit ->
  forall (fuel : nat) data file off, (length data < fuel)%nat -> off + len data < two63 ->
  file_written fuel msize iounit file off data = Ok (len data, pwrite file off data).
Proof.
  intros msize iounit Hs. induction fuel as [|f IH]; intros data file off Hf Hoff; [lia|].
  destruct data as [|x d] eqn:E; [reflexivity|].
  cbn [file_written]. rewrite <- E in *.
  assert (Hpos : 1 <= len data) by (rewrite E; apply len_cons_pos). clear E.
  assert (Hi : 1 <= iounit) by apply Hs.
  rewrite write_chunk by (assumption || lia). cbn [bind].
  set (n := N.min (len data) iounit). assert (Hn : 1 <= n <= len data) by lia.
  destruct (N.eqb_spec n 0); [lia|].
  rewrite IH by (unfold len in *; rewrite skipn_length; lia). cbn [bind].
  replace (off + n) with (off + len (firstn (N.to_nat n) data)) by (rewrite len_firstn; lia).
  rewrite pwrite_app, firstn_skipn.
  do 2 f_equal. unfold len in *. rewrite skipn_length. lia.
Qed.

(* File.Written: the file then holds exactly the data, whatever the chunking *)
Theorem written_exact : forall msize iounit file off data,
  sane msize iounit -> off + len data < two63 ->
  file_written (S (length data)) msize iounit file off data = Ok (len data, pwrite file off data).
Proof.
  intros msize iounit file off data Hs Hoff. apply written_gen; [exact Hs|lia|exact Hoff].
Qed.

(* hence two different iounits (chunkings) give the same file *)
Theorem written_chunking_irrelevant : forall m1 i1 m2 i2 file off data,
  sane m1 i1 -> sane m2 i2 -> off + len data < two63 ->
  file_written (S (length data)) m1 i1 file off data = file_written (S (length data)) m2 i2 file off data.
Proof.
  intros. rewrite !written_exact by assumption. reflexivity.
Qed.
