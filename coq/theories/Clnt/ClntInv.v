(* Invariants of the client model (Clnt/Model.v): EInv (clnt.err against the reader's state), InvF
   (requests, reader and callers), the tags as a permutation of the pool; all of them in every
   reachable state (cinv_reach). *)
From Coq Require Import NArith List PeanoNat Lia Permutation.
From V9 Require Import Lib.GoSem Lib.ListFacts Gen.Consts Clnt.Model Clnt.ClntBase.
Import ListNotations.

Definition closing (rd : rdr) : bool :=
  match rd with RdRun | RdDeliver _ => false | _ => true end.
Definition rd_list (rd : rdr) : list nat :=
  match rd with RdDeliver r => [r] | RdClose2 t => t | _ => [] end.
Definition pend (s : cst) : list nat := lst s ++ rd_list (reader s).

(* clnt.err is set exactly when the reader has left its receive loop, and the list is detached
   before the error is reported to the requests that were on it *)
Record EInv (s : cst) : Prop := {
  e_err : err s = closing (reader s);
  e_lst : match reader s with RdClose2 _ | RdEnd => lst s = [] | _ => True end }.
Arguments e_err {s}.
Arguments e_lst {s}.

Lemma einv_init k : EInv (cinit_n k).
Proof. constructor; reflexivity. Qed.

Lemma einv_step s l s' : EInv s -> cshape s l s' -> EInv s'.
Proof.
  intros [E1 E2] H. destruct H; constructor; simpl; auto.
  all: try rewrite Hrd in *; simpl in *; auto.
  (* a request is linked only while there is no error, so the reader has not started to close *)
  rewrite He in E1. destruct (reader s); auto; discriminate.
Qed.

(* the pending requests: those on the list, and those the reader has taken from it and not yet signalled *)
Definition pendf (ls : list nat) (rd : rdr) : list nat := ls ++ rd_list rd.

Lemma in_pendf r ls rd : In r (pendf ls rd) <-> In r ls \/ In r (rd_list rd).
Proof. apply in_app_iff. Qed.

Lemma pendf_idle ls rd : rd_list rd = [] -> pendf ls rd = ls.
Proof. unfold pendf. intros ->. apply app_nil_r. Qed.

Lemma in_pendf_deliver r ls : In r (pendf ls (RdDeliver r)).
Proof. apply in_pendf. right. left. auto. Qed.

(* how the pending requests change: one is linked, one is matched, one is signalled *)
Lemma pendf_snoc r ls rd : Permutation (pendf (ls ++ [r]) rd) (r :: pendf ls rd).
Proof. unfold pendf. rewrite <- app_assoc. symmetry. apply Permutation_middle. Qed.

Lemma pendf_match ls r :
  In r ls -> Permutation (pendf (remove_first ls r) (RdDeliver r)) (pendf ls RdRun).
Proof.
  intros H. rewrite (pendf_idle ls RdRun) by reflexivity. unfold pendf; simpl.
  rewrite <- Permutation_cons_append. apply remove_first_perm, H.
Qed.

Lemma pendf_head ls rd rd' r :
  rd_list rd = r :: rd_list rd' -> Permutation (pendf ls rd) (r :: pendf ls rd').
Proof. unfold pendf. intros ->. symmetry. apply Permutation_middle. Qed.

(* what the record [q] of a request must hold, by whether the request is pending ([P]) and whether
   the reader is delivering it ([D]); [fr] frames have been received *)
Record req_ok (P D : Prop) (fr : nat) (q : creq) : Prop := {
  q_pend : P -> cr_linked q = true /\ cr_signalled q = false;
  q_nores : P -> ~ D -> cr_result q = None;
  q_deliv : D -> cr_result q <> None;
  q_frame : forall f, rfr q = Some f -> f < fr /\ cr_ftag q = Some (cr_wire q) /\ cr_linked q = true }.
Arguments q_pend {P D fr q}.
Arguments q_nores {P D fr q}.
Arguments q_deliv {P D fr q}.
Arguments q_frame {P D fr q} _ [f].

Lemma req_ok_mono (P D P' D' : Prop) fr fr' q :
  req_ok P D fr q -> (P' -> P) -> (D' <-> D) -> fr <= fr' -> req_ok P' D' fr' q.
Proof.
  intros [A B C E] Hp Hd Hfr. constructor.
  - auto.
  - intros p nd. apply B; auto. intros d0. apply nd, Hd, d0.
  - intros d0. apply C, Hd, d0.
  - intros f Hf. destruct (E f Hf) as (? & ? & ?). repeat split; auto. lia.
Qed.

Definition caller_ok (rs : list creq) (ls : list nat) (rd : rdr) (x : caller) : Prop :=
  match c_pc x with
  | CAlloc => c_req x = None /\ c_res x = None
  | pc => exists r q, c_req x = Some r /\ nth_error rs r = Some q /\
     match pc with
     | CAlloc => True
     | CLock => ~ In r (pendf ls rd) /\ cr_result q = None /\ c_res x = None
     | CHandoff => In r (pendf ls rd) /\ c_res x = None
     | CWait => c_res x = None /\ (In r (pendf ls rd) \/ (cr_signalled q = true /\ cr_result q <> None))
     | CFree | CDone => ~ In r (pendf ls rd) /\ (c_res x = Some RConnErr \/ c_res x = cr_result q)
     end
  end.

(* what [caller_ok] says of a caller at [pc] holding [res], about its request: whether that
   is pending ([P]) and what its record [q] holds *)
Definition phase (P : Prop) (pc : cpc) (res : option result) (q : creq) : Prop :=
  match pc with
  | CAlloc => False
  | CLock => ~ P /\ cr_result q = None /\ res = None
  | CHandoff => P /\ res = None
  | CWait => res = None /\ (P \/ (cr_signalled q = true /\ cr_result q <> None))
  | CFree | CDone => ~ P /\ (res = Some RConnErr \/ res = cr_result q)
  end.

Lemma caller_ok_phase {rs ls rd x r q} :
  c_req x = Some r -> nth_error rs r = Some q ->
  (caller_ok rs ls rd x <-> phase (In r (pendf ls rd)) (c_pc x) (c_res x) q).
Proof.
  unfold caller_ok, phase. intros Hr Hq. destruct (c_pc x).
  1: split; [intros [? _]; congruence|tauto].
  all: split; [intros (r' & q' & Hr' & Hq' & H); congruence|intros H; exists r, q; auto].
Qed.

Lemma caller_ok_req rs ls rd x :
  caller_ok rs ls rd x -> c_pc x <> CAlloc -> exists r q, c_req x = Some r /\ nth_error rs r = Some q.
Proof.
  unfold caller_ok. destruct (c_pc x); try congruence; intros (r & q & ? & ? & _) _; eauto.
Qed.

Lemma caller_res {rs ls rd x res} :
  caller_ok rs ls rd x -> c_res x = Some res ->
  exists r q, c_req x = Some r /\ nth_error rs r = Some q /\ (res = RConnErr \/ cr_result q = Some res).
Proof.
  unfold caller_ok. intros Hc Hres. destruct (c_pc x).
  1: destruct Hc; congruence.
  all: destruct Hc as (r & q & Hr & Hq & Hc); exists r, q; split; [exact Hr|split; [exact Hq|]];
    intuition congruence.
Qed.

Lemma caller_ok_req_lt {rs ls rd x r} :
  caller_ok rs ls rd x -> c_req x = Some r -> r < length rs.
Proof.
  unfold caller_ok. destruct (c_pc x).
  1: intros [? _]; congruence.
  all: intros (r' & q & ? & ? & _) ?; assert (r' = r) by congruence; subst; eapply nth_error_lt; eauto.
Qed.

(* a caller is not concerned by a change that leaves its request's record and standing alone *)
Lemma caller_ok_same rs ls rd rs' ls' rd' x :
  caller_ok rs ls rd x ->
  (forall r q, c_req x = Some r -> nth_error rs r = Some q ->
     nth_error rs' r = Some q /\ (In r (pendf ls' rd') <-> In r (pendf ls rd))) ->
  caller_ok rs' ls' rd' x.
Proof.
  unfold caller_ok. intros Hc Hs. destruct (c_pc x); auto.
  all: destruct Hc as (r & q & Hr & Hq & Hc); destruct (Hs _ _ Hr Hq) as [Hq' Hp]; exists r, q;
    split; [exact Hr|split; [exact Hq'|tauto]].
Qed.

(* the invariant of requests, reader and callers.  A pending request is linked and not signalled, it
   has a result only while the reader delivers it; a result that names a frame names one that was
   received, with the wire tag of the request, and no other request names it.  Every caller is where
   its request's standing allows, every pending request has a caller, no two callers share one. *)
Record InvF (rs : list creq) (ls : list nat) (rd : rdr) (fr : nat) (cs : list caller) : Prop := {
  i_nd : NoDup (pendf ls rd);
  i_req : forall r q, nth_error rs r = Some q -> req_ok (In r (pendf ls rd)) (rd = RdDeliver r) fr q;
  i_uf : keyed rfr rs;
  i_call : forall c x, nth_error cs c = Some x -> caller_ok rs ls rd x;
  i_own : forall r, In r (pendf ls rd) -> exists c x, nth_error cs c = Some x /\ c_req x = Some r;
  i_uniq : keyed c_req cs }.
Arguments i_nd {rs ls rd fr cs}.
Arguments i_req {rs ls rd fr cs} _ [r q].
Arguments i_uf {rs ls rd fr cs}.
Arguments i_call {rs ls rd fr cs} _ [c x].
Arguments i_own {rs ls rd fr cs} _ [r].
Arguments i_uniq {rs ls rd fr cs}.

Notation Inv s := (InvF (creqs s) (lst s) (reader s) (frames s) (callers s)).

Lemma inv_init k : Inv (cinit_n k).
Proof.
  constructor; simpl.
  - constructor.
  - intros [|r] q; discriminate.
  - intros [|r1] ? ? ? ?; discriminate.
  - intros [|c] x; discriminate.
  - intros ? [].
  - intros [|c1] ? ? ? ?; discriminate.
Qed.

Lemma i_phase {rs ls rd fr cs c x r q} :
  InvF rs ls rd fr cs -> nth_error cs c = Some x -> c_req x = Some r -> nth_error rs r = Some q ->
  phase (In r (pendf ls rd)) (c_pc x) (c_res x) q.
Proof. intros HI Hx Hr Hq. eapply caller_ok_phase; eauto. eapply i_call; eauto. Qed.

Lemma i_bnd {rs ls rd fr cs r} : InvF rs ls rd fr cs -> In r (pendf ls rd) -> r < length rs.
Proof.
  intros HI Hin. destruct (i_own HI Hin) as (c & x & Hx & Hr).
  exact (caller_ok_req_lt (i_call HI Hx) Hr).
Qed.

Lemma InvF_newcaller rs ls rd fr cs v :
  InvF rs ls rd fr cs -> InvF rs ls rd fr (cs ++ [mkCaller CAlloc None None v]).
Proof.
  intros [Hnd Hok Huf Hc Ho Hu]. constructor; auto.
  - intros c x H. apply nth_app_cases in H. destruct H as [[-> ->]|H]; eauto.
    unfold caller_ok; simpl; auto.
  - intros r Hr. destruct (Ho _ Hr) as (c & x & H & Hx). exists c, x. split; auto.
    rewrite nth_error_app1; auto. eapply nth_error_lt; eauto.
  - apply keyed_app; auto. discriminate.
Qed.

(* a caller that holds no request gets a new one, which is not pending and has no result *)
Lemma InvF_alloc rs ls rd fr cs q v c x :
  InvF rs ls rd fr cs -> cr_result q = None -> nth_error cs c = Some x -> c_req x = None ->
  InvF (rs ++ [q]) ls rd fr (upd cs c (mkCaller CLock (Some (length rs)) None v)).
Proof.
  intros HI Hq Hx Hnone. pose proof HI as [Hnd Hok Huf Hc Ho Hu].
  assert (Hrf : rfr q = None) by (unfold rfr; rewrite Hq; auto).
  assert (Hout : ~ In (length rs) (pendf ls rd)) by (intros Hin; apply (i_bnd HI) in Hin; lia).
  constructor; auto.
  - intros r q0 Hn. apply nth_app_cases in Hn. destruct Hn as [[-> ->]|Hn]; auto.
    constructor; try tauto; try congruence.
    intros ->. destruct Hout. apply in_pendf_deliver.
  - apply keyed_app; auto. congruence.
  - intros c0 x0 H. apply nth_upd_cases in H. destruct H as [[-> ->]|[Hne H]].
    + eapply caller_ok_phase; [reflexivity|apply nth_error_snoc_last|]. simpl. auto.
    + eapply caller_ok_same; eauto. intros r0 q0 _ Hq0. split; [|tauto].
      rewrite nth_error_app1; auto. eapply nth_error_lt; eauto.
  - intros r Hr. destruct (Ho _ Hr) as (c0 & x0 & H & Hx0). exists c0, x0. split; auto.
    rewrite nth_error_upd_other; auto. intros ->. congruence.
  - apply keyed_upd; auto. intros j y k _ Hy [= <-] Ky.
    pose proof (caller_ok_req_lt (Hc _ _ Hy) Ky). lia.
Qed.

(* the reader moves on while nothing is being delivered and the same requests stay pending *)
Lemma InvF_idle rs ls rd fr cs ls' rd' fr' :
  InvF rs ls rd fr cs -> pendf ls' rd' = pendf ls rd ->
  (forall r, rd <> RdDeliver r) -> (forall r, rd' <> RdDeliver r) -> fr <= fr' ->
  InvF rs ls' rd' fr' cs.
Proof.
  intros [Hnd Hok Huf Hc Ho Hu] Hp Hd Hd' Hfr. constructor; auto; rewrite ?Hp; auto.
  - intros r q Hn. eapply req_ok_mono; eauto.
    split; intros H; [destruct (Hd' _ H)|destruct (Hd _ H)].
  - intros c x Hx. eapply caller_ok_same; eauto. intros; rewrite Hp; tauto.
Qed.

(* request [r] and its owner [c] move on together: [r] gets a new record and a new standing with
   the reader, the other requests keep theirs.  A frame number that [r] gains is the current one,
   so no other request has it. *)
Lemma InvF_upd rs ls rd fr cs c x r q ls' rd' fr' q' x' :
  InvF rs ls rd fr cs ->
  nth_error cs c = Some x -> c_req x = Some r -> nth_error rs r = Some q -> c_req x' = Some r ->
  NoDup (pendf ls' rd') ->
  (forall r0, r0 <> r -> (In r0 (pendf ls' rd') <-> In r0 (pendf ls rd)) /\
                         (rd' = RdDeliver r0 <-> rd = RdDeliver r0)) ->
  fr <= fr' ->
  req_ok (In r (pendf ls' rd')) (rd' = RdDeliver r) fr' q' ->
  (forall f, rfr q' = Some f -> rfr q = Some f \/ fr <= f) ->
  phase (In r (pendf ls' rd')) (c_pc x') (c_res x') q' ->
  InvF (upd rs r q') ls' rd' fr' (upd cs c x').
Proof.
  intros [Hnd Hok Huf Hc Ho Hu] Hx Hr Hq Hr' Hnd' Hoth Hfr Hq' Hfq Hph.
  constructor; auto.
  - intros r0 q0 Hn. apply nth_upd_cases in Hn.
    destruct Hn as [[-> ->]|[Hne Hn]]; auto.
    destruct (Hoth _ Hne). eapply req_ok_mono; eauto. tauto.
  - apply keyed_upd; auto. intros r2 q2 f Hne H2 F1 F2. destruct (Hfq _ F1) as [Fq|Hge].
    + apply Hne. eapply Huf; eauto.
    + destruct (q_frame (Hok _ _ H2) F2). lia.
  - intros c0 x0 H0. apply nth_upd_cases in H0. destruct H0 as [[-> ->]|[Hne H0]].
    + eapply caller_ok_phase; eauto. eapply nth_error_upd_same, Hq.
    + eapply caller_ok_same; eauto. intros r0 q0 Hr0 Hq0.
      assert (Hn : r0 <> r) by (intros ->; eauto).
      rewrite nth_error_upd_other by auto. split; [auto|apply Hoth, Hn].
  - intros r0 Hr0. destruct (Nat.eq_dec r0 r) as [->|Hne].
    + exists c, x'. split; [eapply nth_error_upd_same, Hx|auto].
    + apply Hoth, Ho in Hr0; auto. destruct Hr0 as (c0 & x0 & H0 & Hx0).
      exists c0, x0. rewrite nth_error_upd_other; auto. intros ->. congruence.
  - apply keyed_upd; auto. intros j y k Hne Hy Kx Ky. apply Hne. eapply Hu; eauto. congruence.
Qed.

(* only the caller moves *)
Lemma InvF_setc rs ls rd fr cs c x r q x' :
  InvF rs ls rd fr cs -> nth_error cs c = Some x -> c_req x = Some r -> nth_error rs r = Some q ->
  c_req x' = Some r -> phase (In r (pendf ls rd)) (c_pc x') (c_res x') q ->
  InvF rs ls rd fr (upd cs c x').
Proof.
  intros HI Hx Hr Hq Hr' Hph. rewrite <- (upd_same rs r q Hq).
  eapply InvF_upd; eauto; [apply HI|split; reflexivity|apply HI, Hq].
Qed.

(* the reader signals [r], the head of what it holds, whose owner is waiting for it; the record
   names no frame that it did not name before *)
Lemma InvF_deliver rs ls rd fr cs r q res rd' :
  InvF rs ls rd fr cs -> nth_error rs r = Some q -> waiting cs r ->
  rd_list rd = r :: rd_list rd' -> (forall r0, rd' <> RdDeliver r0) ->
  res <> None -> (forall f, rfr (signal q res) = Some f -> rfr q = Some f) ->
  InvF (upd rs r (signal q res)) ls rd' fr cs.
Proof.
  intros HI Hq (c & x & Hx & Hpc & Hr) Hl Hd' Hres Hf.
  pose proof (i_nd HI) as Hnd. rewrite (pendf_head _ _ _ _ Hl) in Hnd.
  inversion Hnd as [|? ? Hout Hnd']; subst.
  rewrite <- (upd_same cs c x Hx).
  eapply InvF_upd; eauto.
  - intros r0 Hne. rewrite (pendf_head _ _ _ _ Hl). simpl. split; [intuition congruence|].
    split; intros H; [destruct (Hd' _ H)|]. rewrite H in Hl. simpl in Hl. congruence.
  - constructor; try tauto. intros f F. apply (q_frame (i_req HI Hq)), Hf, F.
  - pose proof (i_phase HI Hx Hr Hq) as Hc. rewrite Hpc in *. simpl in *. tauto.
Qed.

Lemma inv_step s l s' : Inv s -> cshape s l s' -> Inv s'.
Proof.
  intros HI H. destruct H; simpl.
  all: try (pose proof (i_phase HI Hg eq_refl Hq) as Hc; simpl in Hc).
  all: try rewrite Hrd in HI.
  (* the reader moves on alone *)
  all: try (eapply InvF_idle; [exact HI|unfold pendf; simpl; rewrite ?app_nil_r; reflexivity|..];
            [discriminate|discriminate|lia]).
  (* only a caller moves: what its new place requires, the old one gave *)
  all: try (eapply InvF_setc; [exact HI|exact Hg|reflexivity|exact Hq|reflexivity|simpl; tauto]).
  all: try (eapply InvF_alloc; [exact HI|reflexivity|exact Hg|apply (i_call HI Hg)]).
  - (* a call through the Tag interface: a new caller, given its request at once *)
    rewrite <- (upd_app (callers s) (mkCaller CAlloc None None false) []).
    eapply InvF_alloc; [apply InvF_newcaller, HI|reflexivity|apply nth_error_snoc_last|reflexivity].
  - apply InvF_newcaller, HI.
  - (* sh_lock_linked: the request of a caller at CLock is not pending *)
    destruct Hc as (Hout & _).
    eapply InvF_upd; [exact HI|exact Hg|reflexivity|exact Hq|..]; try reflexivity.
    + rewrite pendf_snoc. constructor; [exact Hout|apply HI].
    + intros r0 Hne. rewrite pendf_snoc. simpl. intuition congruence.
    + constructor; simpl; auto; try discriminate.
      intros Hd. destruct Hout. rewrite Hd. apply in_pendf_deliver.
    + discriminate.
    + simpl. rewrite pendf_snoc. simpl. tauto.
  - (* sh_handoff_sent *)
    destruct (i_req HI Hq) as [A B C D].
    eapply InvF_upd; [exact HI|exact Hg|reflexivity|exact Hq|..]; try reflexivity;
      [apply HI|split; reflexivity|constructor; auto|auto|simpl; tauto].
  - (* sh_recv_matched: the frame is the newest, and it carries the wire tag of the request found *)
    pose proof (pendf_match _ _ (find_tag_in Hft)) as Hp.
    assert (Hin : In r (pendf (lst s) RdRun)) by (apply in_pendf; left; exact (find_tag_in Hft)).
    destruct (q_pend (i_req HI Hq) Hin) as [Hl _].
    destruct (i_own HI Hin) as (c & x & Hx & Hr).
    apply find_tag_spec in Hft. destruct Hft as (_ & _ & q0 & _ & Hq0 & Hw & _).
    rewrite <- (upd_same (callers s) c x Hx).
    eapply InvF_upd; [exact HI|exact Hx|exact Hr|exact Hq|exact Hr|..]; auto.
    + rewrite Hp. apply HI.
    + intros r0 Hne. rewrite Hp. split; [tauto|split; congruence].
    + constructor; unfold rfr; simpl; rewrite ?fr_of_result_of; try congruence; auto.
      intros f [= <-]. repeat split; auto; congruence.
    + unfold rfr at 1; simpl. rewrite fr_of_result_of. intros f [= <-]. lia.
    + (* the request stays pending, which is all its owner relies on *)
      pose proof (i_phase HI Hx Hr Hq) as Hc. pose proof Hin as Hin'. rewrite <- Hp in Hin'.
      destruct (c_pc x); simpl in *; tauto.
  - (* sh_deliver_reply: the request has a result *)
    eapply InvF_deliver; eauto; try reflexivity; try discriminate.
    apply (q_deliv (i_req HI Hq) eq_refl).
  - (* sh_deliver_error *)
    eapply InvF_deliver; eauto; try reflexivity; discriminate.
  - (* sh_take: a signalled request is not pending *)
    eapply InvF_setc; eauto; simpl; auto. split; auto.
    intros Hin. destruct (q_pend (i_req HI Hq) Hin). congruence.
Qed.

Definition ltag (rs : list creq) (x : caller) : list N :=
  match c_pc x, c_req x with
  | (CLock | CHandoff | CWait | CFree), Some r =>
    match nth_error rs r with
    | Some q => if cr_shared q then [] else [cr_tag q]
    | None => [] end
  | _, _ => [] end.

Lemma live_tags_eq s : live_tags s = flat_map (ltag (creqs s)) (callers s).
Proof. reflexivity. Qed.

(* every tag there is: held by a caller, in the cache, or in the pool.  They stay a permutation of
   the initial pool ([ci_t] below). *)
Definition tagsF (rs : list creq) (cs : list caller) (ca po : list N) : list N :=
  flat_map (ltag rs) cs ++ ca ++ po.

Notation tags s := (tagsF (creqs s) (callers s) (cache s) (pool s)).

(* the tag a caller holds is not affected by a new request, nor by a change to a record
   that keeps its tag *)
Lemma ltag_app {rs ls rd fr cs} :
  InvF rs ls rd fr cs -> forall q y, In y cs -> ltag (rs ++ [q]) y = ltag rs y.
Proof.
  intros HI q y Hy. apply In_nth_error in Hy. destruct Hy as (c & Hc).
  unfold ltag. destruct (c_req y) as [r|] eqn:Hr; auto.
  rewrite nth_error_app1; auto. eapply caller_ok_req_lt; eauto. eapply i_call; eauto.
Qed.

Lemma ltag_upd rs n q q' y :
  nth_error rs n = Some q -> cr_shared q' = cr_shared q -> cr_tag q' = cr_tag q ->
  ltag (upd rs n q') y = ltag rs y.
Proof.
  intros Hq Hs Ht. unfold ltag. destruct (c_req y) as [r|]; auto.
  destruct (Nat.eq_dec n r) as [->|Hne];
    [erewrite nth_error_upd_same by eauto; rewrite Hq, Hs, Ht; auto
    |rewrite nth_error_upd_other by auto; auto].
Qed.

(* caller [c] moves: if what it holds, the cache and the pool are conserved together, so is the whole *)
Lemma tags_move rs rs' cs c x x' ca po ca' po' :
  nth_error cs c = Some x -> (forall y, In y cs -> ltag rs' y = ltag rs y) ->
  Permutation (ltag rs' x' ++ ca' ++ po') (ltag rs x ++ ca ++ po) ->
  Permutation (tagsF rs' (upd cs c x') ca' po') (tagsF rs cs ca po).
Proof.
  intros Hx Hext P. unfold tagsF. apply Permutation_app_inv_l with (l := ltag rs' x).
  rewrite !app_assoc, (flat_map_upd_perm (ltag rs') cs c x x' Hx).
  rewrite (flat_map_ext_in' _ _ _ Hext), (Hext x) by (eapply nth_error_In; eauto).
  rewrite <- !app_assoc, (Permutation_app_swap_app (ltag rs' x')), P.
  apply Permutation_app_swap_app.
Qed.

Lemma tags_step {s l s'} : Inv s -> cshape s l s' -> Permutation (tags s') (tags s).
Proof.
  intros HI H. destruct H; simpl; try reflexivity.
  (* only a record changes, and keeps its tag *)
  all: try (unfold tagsF; erewrite flat_map_ext_in'; [reflexivity|eauto using ltag_upd]).
  (* a caller moves: what it holds before and after is computed from its place and its request *)
  all: try (eapply tags_move; [exact Hg|eauto using ltag_app, ltag_upd|]; try erewrite ltag_upd by eauto;
            unfold ltag; simpl; rewrite ?Hq, ?Hsh, ?nth_error_snoc_last, ?Hca, ?Hpo; simpl; try reflexivity).
  - (* a shared request holds no tag of the pool *)
    unfold tagsF. rewrite flat_map_app, (flat_map_ext_in' _ _ _ (ltag_app HI _)). simpl.
    unfold ltag at 2; simpl. rewrite nth_error_snoc_last. simpl. rewrite app_nil_r. reflexivity.
  - unfold tagsF. rewrite flat_map_app. simpl. rewrite app_nil_r. reflexivity.
  - (* the tag goes back to the cache, or else to the pool *)
    rewrite <- app_assoc. symmetry. apply Permutation_middle.
  - rewrite app_assoc. symmetry. apply Permutation_cons_append.
Qed.

Lemma seqN_length a k : length (seqN a k) = k.
Proof. revert a; induction k; simpl; auto. Qed.

Lemma seqN_ge a k x : In x (seqN a k) -> (a <= x)%N.
Proof.
  revert a; induction k; simpl; intros a H. contradiction.
  destruct H as [<-|H]. apply N.le_refl. apply IHk in H. lia.
Qed.

Lemma seqN_nodup a k : NoDup (seqN a k).
Proof.
  revert a; induction k; simpl; intros a; constructor; auto.
  intros H. apply seqN_ge in H. lia.
Qed.

Record CInv (k : nat) (s : cst) : Prop := {
  ci_e : EInv s;
  ci_i : Inv s;
  ci_t : Permutation (tags s) (seqN 0 k) }.
Arguments ci_e {k s}.
Arguments ci_i {k s}.
Arguments ci_t {k s}.

Lemma cinv_reach k s : creach k s -> CInv k s.
Proof.
  induction 1 as [|s l s' _ [HE HI HT] H].
  - constructor; [apply einv_init|apply inv_init|reflexivity].
  - apply cstep_inv in H. constructor.
    + eapply einv_step; eauto.
    + eapply inv_step; eauto.
    + rewrite (tags_step HI H). exact HT.
Qed.
