(* Proofs about the client's side of the version negotiation (Clnt/Version.v) composed with the
   server's Tversion handler (Srv/Seq.v). *)
From Coq Require Import NArith List Bool Lia.
From V9 Require Import Lib.GoSem Lib.Bytes Gen.Consts Codec.Msg Srv.Seq Srv.SeqSpec Srv.SeqLemmas Srv.SeqProofs Clnt.IO Clnt.Version.
From V9 Require Clnt.IOProofs.
Import ListNotations.
Local Open Scope N_scope.

Lemma clnt_connect_min : forall cm wantu rm rv, fst (clnt_connect cm wantu rm rv) = N.min cm rm.
Proof.
  intros. unfold clnt_connect. cbn [fst]. rewrite IOProofs.clamp_min. apply N.min_comm.
Qed.

Lemma clnt_connect_dialect : forall cm wantu rm rv,
  snd (clnt_connect cm wantu rm rv) = true <-> (wantu = true /\ bytes_eqb rv ver_u = true).
Proof.
  intros. unfold clnt_connect. cbn [snd]. rewrite andb_true_iff. tauto.
Qed.

(* whatever the state of the connection, the client ends with the msize and the dialect the
   server's connection has after it answered the client's Tversion *)
Theorem both_sides_agree : forall cfg c cm wantu sc c' m v ev,
  CInv cfg c -> c_IOHDRSZ <= cm ->
  seq_step cfg c (clnt_version_request cm wantu) sc = (c', Rversion_ m v, ev) ->
  clnt_connect cm wantu m v = (c_msize c', c_dotu c').
Proof.
  intros cfg c cm wantu sc c' m v ev HC Hcm H.
  unfold clnt_version_request in H. rewrite rversion_min in H by exact HC.
  replace (cm <? c_IOHDRSZ) with false in H by (symmetry; apply N.ltb_ge; exact Hcm).
  cbv zeta in H. injection H as Hc Hm Hv _. subst c' m.
  cbn [c_msize c_dotu]. unfold clnt_connect.
  f_equal.
  - rewrite IOProofs.clamp_min. lia.
  - subst v. destruct wantu.
    + change (bytes_eqb ver_u ver_u) with true. cbn [andb].
      destruct (s_dotu cfg); [change (bytes_eqb ver_u ver_u) with true | change (bytes_eqb ver_p ver_u) with false]; reflexivity.
    + change (bytes_eqb ver_p ver_u) with false. cbn [andb]. apply andb_false_r.
Qed.

(* a too small proposal is refused by the server: the client's Connect fails (Rerror), nothing to adopt *)
Theorem small_proposal_refused : forall cfg c cm wantu sc,
  CInv cfg c -> cm < c_IOHDRSZ ->
  exists r, seq_step cfg c (clnt_version_request cm wantu) sc = (c, r, []) /\ is_rerror r = true.
Proof.
  intros cfg c cm wantu sc HC Hcm. unfold clnt_version_request. rewrite rversion_min by exact HC.
  replace (cm <? c_IOHDRSZ) with true by (symmetry; apply N.ltb_lt; exact Hcm).
  eexists. split; [reflexivity|]. rewrite is_rerror_wire.
  rewrite fit_rerror. reflexivity.
Qed.

(* with the iounit Clnt.Open derives, no Twrite frame and no Rread the client asks for exceeds msize *)
Theorem client_frames_fit : forall msize riounit n,
  c_IOHDRSZ <= msize ->
  let iou := open_iounit msize riounit in
  iou <= msize - c_IOHDRSZ /\
  twrite_frame_len iou n <= msize /\
  rread_frame_len (tread_count iou n) <= msize.
Proof.
  intros msize riounit n Hm iou.
  assert (I : iou <= msize - c_IOHDRSZ) by apply IOProofs.open_iounit_le.
  unfold twrite_frame_len, rread_frame_len, tread_count. rewrite IOProofs.clamp_min.
  unfold c_IOHDRSZ in *. lia.
Qed.

Example version_nonvacuous :
  clnt_connect 8216 true 8192 ver_u = (8192, true) /\ clnt_connect 8216 true 8192 ver_p = (8192, false) /\
  clnt_connect 8192 false 8216 ver_u = (8192, false) /\
  twrite_frame_len (open_iounit 8192 0) 100000 = 8191.
Proof. vm_compute. repeat split; reflexivity. Qed.
