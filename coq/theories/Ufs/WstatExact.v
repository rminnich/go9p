(* Ufs.Wstat, read field by field: which system calls a Twstat issues, on which object,
   with which arguments, in which order - and that it issues nothing else ("changes
   nothing else" of C17).  The statements mention the request and the plan only; they do
   not go through [wstat_spec], which is defined from the plan. *)
From Coq Require Import NArith List Bool Lia.
From V9 Require Import Lib.GoSem Lib.Bytes Gen.Consts Ufs.Path Ufs.Handlers Ufs.UfsProofs.
Import ListNotations.
Local Open Scope N_scope.

(* the object the later steps (truncate, chtimes) act on: the fid's path, or the rename's
   destination; None when the rename is refused *)
Definition wstat_target (root path : hpath) (w : wstat_req) : option hpath :=
  match w_name w with
  | [] => Some path
  | _ => rename_dest root path (w_name w)
  end.

Definition is_chmod (o : sysop) := match o with SChmod _ _ => true | _ => false end.
Definition is_chown (o : sysop) := match o with SChown _ _ _ => true | _ => false end.
Definition is_rename (o : sysop) := match o with SRename _ _ => true | _ => false end.
Definition is_trunc (o : sysop) := match o with STruncate _ _ => true | _ => false end.
Definition is_times (o : sysop) := match o with SChtimes _ _ _ => true | _ => false end.

Definition keep32 (v : N) : option N := if v =? ones32 then None else Some v.

(* one optional step of a plan: the call [f p], issued when there is an object [p] to act
   on and the request asks for it *)
Definition step_on (t : option hpath) (b : bool) (f : hpath -> sysop) : list sysop :=
  if b then match t with Some p => [f p] | None => [] end else [].

Lemma step_on_cases : forall t b f,
  step_on t b f = [] \/ exists p, t = Some p /\ b = true /\ step_on t b f = [f p].
Proof. intros [p|] [] f; cbn; eauto. Qed.

Lemma in_step_on : forall o t b f,
  In o (step_on t b f) <-> exists p, o = f p /\ t = Some p /\ b = true.
Proof.
  intros o t b f. split.
  - destruct (step_on_cases t b f) as [->|(p & Ht & Hb & ->)]; [intros []|].
    intros [<-|[]]. eauto.
  - intros (p & -> & -> & ->). left. reflexivity.
Qed.

Lemma step_on_length : forall t b f, (length (step_on t b f) <= 1)%nat.
Proof. intros [p|] [] f; cbn; lia. Qed.

Lemma forallb_step_on : forall q t b f,
  (forall p, q (f p) = true) -> forallb q (step_on t b f) = true.
Proof. intros q [p|] [] f H; cbn; rewrite ?H; reflexivity. Qed.

(* the mode handed to chmod: the permission bits, and setuid/setgid in 9P2000.u *)
Definition chmod_bits (dotu : bool) (mode : N) : N :=
  N.lor (N.land mode 511)
        (if dotu then N.lor (bit (has_bit_n mode c_DMSETUID) 2048) (bit (has_bit_n mode c_DMSETGID) 1024) else 0).

(* The whole of Ufs.Wstat: five optional steps, chmod and chown on the fid's object, rename
   from it to the target, truncate and chtimes on the target. *)
Lemma wstat_plan_eq : forall dotu root path w,
  wstat_plan dotu root path w =
  CPlan
    (step_on (Some path) (negb (w_mode w =? ones32)) (fun p => SChmod p (chmod_bits dotu (w_mode w))) ++
     step_on (Some path) (dotu && (negb (w_uidnum w =? c_NOUID) || negb (w_gidnum w =? c_NOUID)))
       (fun p => SChown p (w_uidnum w) (w_gidnum w)) ++
     step_on (wstat_target root path w) (match w_name w with [] => false | _ => true end)
       (SRename path) ++
     step_on (wstat_target root path w) (negb (w_length w =? ones64))
       (fun t => STruncate t (w_length w)) ++
     step_on (wstat_target root path w) (negb ((w_mtime w =? ones32) && (w_atime w =? ones32)))
       (fun t => SChtimes t (keep32 (w_atime w)) (keep32 (w_mtime w)))).
Proof.
  intros dotu root path w. unfold wstat_plan, wstat_target, keep32, step_on. rewrite !negb_if.
  destruct (w_name w) as [|c nm]; [|destruct (rename_dest root path (c :: nm))]; try reflexivity.
  (* no target: the last three steps are empty whatever the request asks *)
  destruct (w_length w =? ones64), ((w_mtime w =? ones32) && (w_atime w =? ones32));
    rewrite app_nil_r; reflexivity.
Qed.

(* The same, call by call: what a Twstat issues, and when. *)
Inductive wstat_op (dotu : bool) (root path : hpath) (w : wstat_req) : sysop -> Prop :=
| op_chmod : w_mode w <> ones32 -> wstat_op dotu root path w (SChmod path (chmod_bits dotu (w_mode w)))
| op_chown : dotu = true -> w_uidnum w <> c_NOUID \/ w_gidnum w <> c_NOUID ->
    wstat_op dotu root path w (SChown path (w_uidnum w) (w_gidnum w))
| op_rename t : wstat_target root path w = Some t -> w_name w <> [] ->
    wstat_op dotu root path w (SRename path t)
| op_trunc t : wstat_target root path w = Some t -> w_length w <> ones64 ->
    wstat_op dotu root path w (STruncate t (w_length w))
| op_times t : wstat_target root path w = Some t -> w_atime w <> ones32 \/ w_mtime w <> ones32 ->
    wstat_op dotu root path w (SChtimes t (keep32 (w_atime w)) (keep32 (w_mtime w))).

Lemma in_wstat_plan : forall dotu root path w ops o,
  wstat_plan dotu root path w = CPlan ops -> In o ops <-> wstat_op dotu root path w o.
Proof.
  intros dotu root path w ops o H. rewrite wstat_plan_eq in H. injection H as <-.
  assert (Hn : match w_name w with [] => false | _ => true end = true <-> w_name w <> [])
    by (destruct (w_name w); split; congruence).
  (* membership in each of the five steps, its condition as a proposition *)
  rewrite !in_app_iff, !in_step_on. setoid_rewrite Hn. setoid_rewrite andb_true_iff.
  setoid_rewrite negb_andb. setoid_rewrite orb_true_iff. setoid_rewrite negb_true_iff. setoid_rewrite N.eqb_neq. split.
  - intros [(p & -> & [= <-] & Hb)|[(p & -> & [= <-] & Hb)|[(p & -> & Hb)|[(p & -> & Hb)|(p & -> & Hb)]]]];
      constructor; tauto.
  - intros []; [left | right; left | do 2 right; left | do 3 right; left | do 4 right];
      eexists; (split; [reflexivity|tauto]).
Qed.

(* a wstat with every field at its "don't touch" value does nothing *)
Theorem wstat_nothing : forall dotu root path,
  wstat_plan dotu root path (mkWstat ones32 c_NOUID c_NOUID [] ones64 ones32 ones32) = CPlan [].
Proof. intros [] root path; reflexivity. Qed.

(* the plan, split into its five optional steps *)
Lemma wstat_plan_split : forall dotu root path w ops,
  wstat_plan dotu root path w = CPlan ops ->
  exists a b c d e,
    ops = a ++ b ++ c ++ d ++ e /\
    (a = [] \/ exists m, a = [SChmod path m]) /\
    (b = [] \/ b = [SChown path (w_uidnum w) (w_gidnum w)]) /\
    (c = [] \/ exists t, c = [SRename path t] /\ wstat_target root path w = Some t /\ w_name w <> []) /\
    (d = [] \/ exists t, d = [STruncate t (w_length w)] /\ wstat_target root path w = Some t) /\
    (e = [] \/ exists t, e = [SChtimes t (keep32 (w_atime w)) (keep32 (w_mtime w))] /\ wstat_target root path w = Some t).
Proof.
  intros dotu root path w ops H. rewrite wstat_plan_eq in H. injection H as <-.
  eexists _, _, _, _, _. split; [reflexivity|].
  repeat split;
    (edestruct step_on_cases as [E|(p & Ht & Hb & E)]; [left; exact E | right]).
  - injection Ht as <-. eexists. exact E.
  - injection Ht as <-. exact E.
  - exists p. repeat split; [exact E | exact Ht |]. destruct (w_name w); discriminate.
  - exists p. split; [exact E | exact Ht].
  - exists p. split; [exact E | exact Ht].
Qed.

(* nothing but metadata calls: no create, open, link, remove *)
Theorem wstat_only_metadata : forall dotu root path w ops o,
  wstat_plan dotu root path w = CPlan ops -> In o ops ->
  is_chmod o || is_chown o || is_rename o || is_trunc o || is_times o = true.
Proof.
  intros dotu root path w ops o H Hin. apply (in_wstat_plan _ _ _ _ _ _ H) in Hin.
  destruct Hin; reflexivity.
Qed.

Theorem wstat_at_most_five : forall dotu root path w ops,
  wstat_plan dotu root path w = CPlan ops -> (length ops <= 5)%nat.
Proof.
  intros dotu root path w ops H. rewrite wstat_plan_eq in H. injection H as <-.
  rewrite !app_length. change 5%nat with (1 + (1 + (1 + (1 + 1))))%nat.
  repeat apply PeanoNat.Nat.add_le_mono; apply step_on_length.
Qed.

(* order: chmod, chown, rename, truncate, chtimes *)
Theorem wstat_order : forall dotu root path w ops,
  wstat_plan dotu root path w = CPlan ops ->
  exists a b c d e, ops = a ++ b ++ c ++ d ++ e /\
    forallb is_chmod a = true /\ forallb is_chown b = true /\ forallb is_rename c = true /\
    forallb is_trunc d = true /\ forallb is_times e = true.
Proof.
  intros dotu root path w ops H. rewrite wstat_plan_eq in H. injection H as <-.
  eexists _, _, _, _, _. split; [reflexivity|].
  repeat split; apply forallb_step_on; reflexivity.
Qed.

Lemma perm_bits : forall mode x, N.land x 511 = 0 ->
  N.land (N.lor (N.land mode 511) x) 511 = N.land mode 511.
Proof.
  intros mode x Hx. rewrite N.land_lor_distr_l, <- N.land_assoc, Hx.
  replace (N.land 511 511) with 511 by reflexivity.
  apply N.lor_0_r.
Qed.

Lemma chmod_bits_perm : forall dotu mode, N.land (chmod_bits dotu mode) 511 = N.land mode 511.
Proof.
  intros dotu mode. apply perm_bits. destruct dotu; [|reflexivity]. unfold bit.
  destruct (has_bit_n mode c_DMSETUID), (has_bit_n mode c_DMSETGID); reflexivity.
Qed.

(* chmod: issued iff the mode is not "don't touch"; on the fid's object; the nine
   permission bits are the requested ones *)
Theorem wstat_chmod_exact : forall dotu root path w ops,
  wstat_plan dotu root path w = CPlan ops ->
  (forall p m, In (SChmod p m) ops ->
     p = path /\ w_mode w <> ones32 /\ N.land m 511 = N.land (w_mode w) 511) /\
  (w_mode w <> ones32 -> exists m, In (SChmod path m) ops).
Proof.
  intros dotu root path w ops H. split.
  - intros p m Hin. apply (in_wstat_plan _ _ _ _ _ _ H) in Hin. inversion Hin; subst.
    auto using chmod_bits_perm.
  - intro Hne. eexists. apply (in_wstat_plan _ _ _ _ _ _ H), op_chmod, Hne.
Qed.

(* chown: only in 9P2000.u, only when a numeric id is given; on the fid's object, with the request's ids *)
Theorem wstat_chown_exact : forall dotu root path w ops p u g,
  wstat_plan dotu root path w = CPlan ops -> In (SChown p u g) ops ->
  dotu = true /\ p = path /\ u = w_uidnum w /\ g = w_gidnum w /\
  (w_uidnum w <> c_NOUID \/ w_gidnum w <> c_NOUID).
Proof.
  intros dotu root path w ops p u g H Hin. apply (in_wstat_plan _ _ _ _ _ _ H) in Hin.
  inversion Hin; subst. auto.
Qed.

(* rename: from the fid's object to a destination under the root *)
Theorem wstat_rename_confined : forall dotu root path w ops p d,
  wstat_plan dotu root path w = CPlan ops -> In (SRename p d) ops ->
  p = path /\ inside (clean root) d = true.
Proof.
  intros dotu root path w ops p d H Hin. apply (in_wstat_plan _ _ _ _ _ _ H) in Hin.
  inversion Hin as [| |t Ht Hn| |]; subst. split; [reflexivity|].
  unfold wstat_target in Ht. destruct (w_name w); [contradiction|].
  eapply rename_confined, Ht.
Qed.

(* truncate: issued iff a length is given and the rename (if any) was allowed; on the
   target, with the requested length *)
Theorem wstat_truncate_exact : forall dotu root path w ops,
  wstat_plan dotu root path w = CPlan ops ->
  (forall p len, In (STruncate p len) ops ->
     wstat_target root path w = Some p /\ len = w_length w /\ w_length w <> ones64) /\
  (forall t, wstat_target root path w = Some t -> w_length w <> ones64 ->
     In (STruncate t (w_length w)) ops).
Proof.
  intros dotu root path w ops H. split.
  - intros p len Hin. apply (in_wstat_plan _ _ _ _ _ _ H) in Hin. inversion Hin; subst. auto.
  - intros t Ht Hl. apply (in_wstat_plan _ _ _ _ _ _ H), op_trunc; assumption.
Qed.

Theorem wstat_follows_rename : forall dotu root path w ops d,
  w_name w <> [] -> rename_dest root path (w_name w) = Some d ->
  wstat_plan dotu root path w = CPlan ops ->
  (w_length w <> ones64 -> In (STruncate d (w_length w)) ops) /\
  (forall p len, In (STruncate p len) ops -> p = d).
Proof.
  intros dotu root path w ops d Hn R H.
  assert (Ht : wstat_target root path w = Some d)
    by (unfold wstat_target; destruct (w_name w); [contradiction | exact R]).
  destruct (wstat_truncate_exact _ _ _ _ _ H) as [Hin Hex]. split.
  - apply Hex, Ht.
  - intros p len Hp. apply Hin in Hp. destruct Hp as [Hp _]. congruence.
Qed.

(* chtimes: issued iff a time is given and the rename (if any) was allowed; on the target; a
   time at its "don't touch" value is passed as "keep", not as the time 2^32-1 (the year 2106) *)
Theorem wstat_chtimes_exact : forall dotu root path w ops,
  wstat_plan dotu root path w = CPlan ops ->
  (forall p a m, In (SChtimes p a m) ops ->
     wstat_target root path w = Some p /\ a = keep32 (w_atime w) /\ m = keep32 (w_mtime w) /\
     (w_atime w <> ones32 \/ w_mtime w <> ones32)) /\
  (forall t, wstat_target root path w = Some t -> (w_atime w <> ones32 \/ w_mtime w <> ones32) ->
     In (SChtimes t (keep32 (w_atime w)) (keep32 (w_mtime w))) ops).
Proof.
  intros dotu root path w ops H. split.
  - intros p a m Hin. apply (in_wstat_plan _ _ _ _ _ _ H) in Hin. inversion Hin; subst. auto.
  - intros t Ht Hne. apply (in_wstat_plan _ _ _ _ _ _ H), op_times; assumption.
Qed.
