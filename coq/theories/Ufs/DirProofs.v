(* The directory branch of Ufs.Read (Ufs/DirWindow.v) as arithmetic on the entry boundaries:
   floor_spec (the search-and-adjust step yields the last boundary that fits), dir_window_spec
   (what a read at any offset and count returns), the C15 theorems, the listing loops. *)
From Coq Require Import ZArith List Bool PeanoNat Lia.
From Coq Require Import ZifyBool.
From V9 Require Import Lib.GoSem Ufs.DirWindow.
Import ListNotations.
Local Open Scope Z_scope.

(* well-formed listing: end offsets of entries with positive sizes *)
Definition wf_ends (ends : list Z) : Prop :=
  exists sizes, ends = ends_of 0 sizes /\ Forall (fun s => 0 < s) sizes.

(* an entry boundary: the start of the listing or the end of an entry *)
Definition boundary (ends : list Z) (b : Z) : Prop := b = 0 \/ In b ends.

(* strictly increasing, all above p *)
Fixpoint incr (p : Z) (l : list Z) : Prop :=
  match l with [] => True | e :: t => p < e /\ incr e t end.

Lemma ends_of_incr : forall sizes p,
  Forall (fun s => 0 < s) sizes -> incr p (ends_of p sizes).
Proof.
  induction sizes as [|s t IH]; intros p H; cbn [ends_of incr]; [exact I|].
  inversion H; subst. split; [lia|]. apply IH. assumption.
Qed.

Lemma wf_incr : forall ends, wf_ends ends -> incr 0 ends.
Proof. intros ends (sizes & -> & H). now apply ends_of_incr. Qed.

Lemma incr_In_gt : forall a p b, incr p a -> In b a -> p < b.
Proof.
  induction a as [|e t IH]; intros p b Hi Hin; [destruct Hin|].
  destruct Hi as [Hpe Hi]. destruct Hin as [<-|Hin]; [exact Hpe|]. specialize (IH e b Hi Hin). lia.
Qed.

Lemma search_le_len : forall a x, (search_ints a x <= length a)%nat.
Proof.
  induction a as [|h t IH]; intros x; cbn [search_ints length]; [lia|].
  destruct (h >=? x); [lia|]. specialize (IH x). lia.
Qed.

(* sort.SearchInts returns the smallest index whose element is at least x *)
Lemma search_lt : forall a x i, (i < search_ints a x)%nat -> nth i a 0 < x.
Proof.
  induction a as [|h t IH]; intros x i; cbn [search_ints]; [lia|].
  destruct (h >=? x) eqn:E; [lia|]. intros Hi.
  destruct i as [|i]; cbn [nth]; [lia|]. apply IH. lia.
Qed.

Lemma search_ge : forall a x, (search_ints a x < length a)%nat ->
  x <= nth (search_ints a x) a 0.
Proof.
  induction a as [|h t IH]; intros x; cbn [search_ints length]; [lia|].
  destruct (h >=? x) eqn:E; cbn [nth]; [lia|]. intros H. apply IH. lia.
Qed.

(* in a sorted list the search finds x exactly when it is there *)
Lemma search_hit : forall a p x, incr p a ->
  (search_ints a x < length a)%nat /\ nth (search_ints a x) a 0 = x <-> In x a.
Proof.
  induction a as [|h t IH]; intros p x Hi; cbn [search_ints length In]; [lia|].
  destruct Hi as [_ Hi]. destruct (h >=? x) eqn:E; cbn [nth].
  - assert (~ In x t) by (intro H; apply (incr_In_gt _ _ _ Hi) in H; lia).
    pose proof (Nat.lt_0_succ (length t)). tauto.
  - rewrite <- (IH h x Hi), <- Nat.succ_lt_mono. assert (h <> x) by lia. tauto.
Qed.

(* what Ufs.Read makes of the place where the search for x stops: x itself if an entry ends
   there (or none ends later), else the end of the entry before, p before the first *)
Definition floor_of (p : Z) (a : list Z) (x : Z) : Z :=
  let ne := search_ints a x in
  if (ne <? length a)%nat then if nth ne a 0 >? x then nth ne (p :: a) 0 else x else x.

Lemma floor_cons : forall p h t x,
  floor_of p (h :: t) x = if h >=? x then if h >? x then p else x else floor_of h t x.
Proof. intros p h t x. unfold floor_of. cbn [search_ints]. destruct (h >=? x); reflexivity. Qed.

(* in the sorted list p :: a that is the greatest element not beyond x *)
Lemma floor_spec : forall a p x top, incr p a -> p <= x -> In top (p :: a) -> x <= top ->
  In (floor_of p a x) (p :: a) /\ floor_of p a x <= x /\
  forall b, In b (p :: a) -> b <= x -> b <= floor_of p a x.
Proof.
  induction a as [|h t IH]; intros p x top Hi Hp Htop Hx.
  - destruct Htop as [<-|[]]. replace (floor_of p [] x) with p by (cbn; lia).
    split; [left; reflexivity|]. split; [lia|]. intros b [<-|[]] _. lia.
  - destruct Hi as [Hph Hi]. rewrite floor_cons. destruct (h >=? x) eqn:E.
    + destruct (h >? x) eqn:G.
      * split; [left; reflexivity|]. split; [lia|]. intros b [<-|[<-|Hb]] Hle; [lia..|].
        apply (incr_In_gt _ _ _ Hi) in Hb. lia.
      * split; [right; left; lia|]. split; [lia|]. intros b _ Hle. exact Hle.
    + destruct (IH h x top Hi) as (H1 & H2 & H3); [lia | destruct Htop; [lia|assumption] | lia |].
      split; [right; exact H1|]. split; [exact H2|]. intros b [<-|Hb] Hle; [|apply H3; assumption].
      specialize (H3 h (or_introl eq_refl)). lia.
Qed.

Lemma last_cons_default : forall (t : list Z) e d, last (e :: t) d = last t e.
Proof.
  induction t as [|x t IH]; intros e d; [reflexivity|].
  change (last (e :: x :: t) d) with (last (x :: t) d). rewrite !IH. reflexivity.
Qed.

Lemma last_incr : forall a p, incr p a ->
  In (last a p) (p :: a) /\ forall b, In b (p :: a) -> b <= last a p.
Proof.
  induction a as [|e t IH]; intros p Hi.
  - split; [left; reflexivity | intros b [<-|[]]; cbn; lia].
  - destruct Hi as [Hpe Hi]. rewrite last_cons_default. destruct (IH e Hi) as [H1 H2].
    split; [right; exact H1|]. intros b [<-|Hb]; [|apply H2, Hb].
    specialize (H2 e (or_introl eq_refl)). lia.
Qed.

Lemma boundary_In : forall a b, boundary a b <-> In b (0 :: a).
Proof. intros a b. unfold boundary. cbn [In]. split; intros [H|H]; auto. Qed.

Lemma boundary_nonneg : forall a b, incr 0 a -> boundary a b -> 0 <= b.
Proof.
  intros a b Hi [->|H]; [lia|]. assert (Hb := incr_In_gt a 0 b Hi H). lia.
Qed.

Lemma boundary_le_total : forall a b, incr 0 a -> boundary a b -> b <= total_of a.
Proof. intros a b Hi Hb. apply last_incr; [exact Hi | apply boundary_In, Hb]. Qed.

Lemma total_boundary : forall a, incr 0 a -> boundary a (total_of a).
Proof. intros a Hi. apply boundary_In, last_incr, Hi. Qed.

(* the pieces of dir_window *)
Definition bad_of (ends : list Z) (off : Z) : bool :=
  if off =? 0 then false
  else let i := search_ints ends off in
       (length ends <=? i)%nat || negb (nthZ ends i =? off).

Definition c1_of (ends : list Z) (off c0 : Z) : Z :=
  let ne := search_ints ends (off + c0) in
  if (ne <? length ends)%nat then
    if nthZ ends ne >? off + c0 then
      if (0 <? ne)%nat then nthZ ends (ne - 1) - off else 0
    else c0
  else c0.

Lemma dir_window_eq : forall ends off cnt,
  dir_window ends off cnt =
  let total := total_of ends in
  if off >? total then DOk 0
  else if bad_of ends off then DBadOffset
  else
    let c0 := if total - off >? cnt then cnt else total - off in
    let c1 := c1_of ends off c0 in
    if (c1 =? 0) && (off <? total) && (0 <? total) then DTooSmall
    else if (c1 <? 0) || (total <? off + c1) then DPanic
    else DOk c1.
Proof. reflexivity. Qed.

Lemma bad_of_false : forall ends off, incr 0 ends -> bad_of ends off = false <-> boundary ends off.
Proof.
  intros ends off Hi. unfold bad_of, boundary, nthZ. rewrite <- (search_hit ends 0 off Hi).
  destruct (Z.eqb_spec off 0) as [->|Hne]; [tauto|]. cbv zeta. lia.
Qed.

(* off + n is the last entry boundary not beyond off + c *)
Definition fits (ends : list Z) (off c n : Z) : Prop :=
  0 <= n <= c /\ boundary ends (off + n) /\
  forall b, boundary ends b -> b <= off + c -> b <= off + n.

Lemma c1_spec : forall ends off c0,
  incr 0 ends -> boundary ends off -> 0 <= c0 <= total_of ends - off ->
  fits ends off c0 (c1_of ends off c0).
Proof.
  intros ends off c0 Hi Hb Hc0. assert (Hoff := boundary_nonneg _ _ Hi Hb).
  destruct (floor_spec ends 0 (off + c0) (total_of ends) Hi) as (Hin & Hle & Hmax);
    [lia | apply boundary_In, total_boundary, Hi | lia |].
  assert (Hr := Hmax off (proj1 (boundary_In _ _) Hb) ltac:(lia)).
  (* Ufs.Read subtracts off, and takes 0 where no entry ends before off + c0: then off = 0 *)
  assert (E : c1_of ends off c0 = floor_of 0 ends (off + c0) - off).
  { revert Hr. unfold c1_of, floor_of, nthZ. cbv zeta. set (ne := search_ints ends (off + c0)).
    destruct (ne <? length ends)%nat; [|lia]. destruct (nth ne ends 0 >? off + c0); [|lia].
    destruct ne as [|k]; cbn [nth Nat.ltb Nat.leb]; [lia|]. rewrite Nat.sub_succ, Nat.sub_0_r. lia. }
  rewrite E. unfold fits.
  replace (off + (floor_of 0 ends (off + c0) - off)) with (floor_of 0 ends (off + c0)) by lia.
  split; [lia|]. split; [apply boundary_In, Hin|]. intros b Hbb. apply Hmax, boundary_In, Hbb.
Qed.

(* What a read at [off] for [cnt] bytes returns: nothing past the end; an error off the entry
   boundaries; otherwise the entries that fit into [cnt] bytes, an error if there are entries
   left and not even the next one fits. *)
Inductive window_spec (ends : list Z) (off cnt : Z) : dres -> Prop :=
| win_past : total_of ends < off -> window_spec ends off cnt (DOk 0)
| win_bad : off <= total_of ends -> ~ boundary ends off -> window_spec ends off cnt DBadOffset
| win_small : boundary ends off -> off < total_of ends ->
    fits ends off (Z.min cnt (total_of ends - off)) 0 -> window_spec ends off cnt DTooSmall
| win_ok n : boundary ends off -> fits ends off (Z.min cnt (total_of ends - off)) n ->
    (off < total_of ends -> 0 < n) -> window_spec ends off cnt (DOk n).

Lemma dir_window_spec : forall ends off cnt,
  incr 0 ends -> 0 <= cnt -> window_spec ends off cnt (dir_window ends off cnt).
Proof.
  intros ends off cnt Hi Hcnt. rewrite dir_window_eq. cbv zeta.
  destruct (Z.gtb_spec off (total_of ends)) as [Hp|Hp]; [apply win_past; lia|].
  destruct (bad_of ends off) eqn:B.
  { apply win_bad; [lia|]. intro Hb. apply (bad_of_false _ _ Hi) in Hb. congruence. }
  apply (bad_of_false _ _ Hi) in B. assert (Hoff := boundary_nonneg _ _ Hi B).
  replace (if total_of ends - off >? cnt then cnt else total_of ends - off)
    with (Z.min cnt (total_of ends - off)) by (destruct (Z.gtb_spec (total_of ends - off) cnt); lia).
  set (c0 := Z.min cnt (total_of ends - off)).
  assert (F := c1_spec ends off c0 Hi B ltac:(lia)).
  set (c1 := c1_of ends off c0) in *. pose proof F as (Hr & _).
  destruct ((c1 =? 0) && (off <? total_of ends) && (0 <? total_of ends)) eqn:S.
  - replace c1 with 0 in F by lia. apply win_small; [exact B | lia | exact F].
  - replace ((c1 <? 0) || (total_of ends <? off + c1)) with false by lia.
    apply win_ok; [exact B | exact F | lia].
Qed.

(* size of the entry that starts at boundary b (0 if none) *)
Fixpoint next_size (prev : Z) (ends : list Z) (b : Z) : Z :=
  match ends with
  | [] => 0
  | e :: t => if prev =? b then e - prev else next_size e t b
  end.

(* the entry that starts at a boundary b before the end ends at the next boundary after b *)
Lemma next_size_spec : forall a p b,
  incr p a -> In b (p :: a) -> b < last a p ->
  0 < next_size p a b /\ In (b + next_size p a b) a /\
  (forall b', In b' a -> b < b' -> b + next_size p a b <= b').
Proof.
  induction a as [|e t IH]; intros p b Hi Hb Hlast.
  - cbn [last] in Hlast. destruct Hb as [->|[]]. lia.
  - destruct Hi as [Hpe Hi]. cbn [next_size].
    destruct (Z.eqb_spec p b) as [<-|Hne].
    + split; [lia|]. split; [left; lia|].
      intros b' [<-|Hin] Hlt; [lia|]. apply (incr_In_gt _ _ _ Hi) in Hin. lia.
    + rewrite last_cons_default in Hlast. destruct Hb as [Hb|Hb]; [contradiction|].
      destruct (IH e b Hi Hb Hlast) as (H1 & H2 & H3).
      split; [exact H1|]. split; [right; exact H2|].
      intros b' [<-|Hin] Hlt; [|apply H3; assumption].
      destruct Hb as [->|Hb]; [lia|]. apply (incr_In_gt _ _ _ Hi) in Hb. lia.
Qed.

Definition max_size (ends : list Z) : Z := fold_right Z.max 0 (entry_sizes ends).

Lemma next_size_le_max : forall a p b,
  next_size p a b <= fold_right Z.max 0 (sizes_from p a).
Proof.
  induction a as [|e t IH]; intros p b; cbn [next_size sizes_from fold_right]; [lia|].
  destruct (p =? b); [lia|]. specialize (IH e b). lia.
Qed.

Lemma fold_max_nonneg : forall a p, 0 <= fold_right Z.max 0 (sizes_from p a).
Proof.
  induction a as [|e t IH]; intros p; cbn [sizes_from fold_right]; [lia|].
  specialize (IH e). lia.
Qed.

(* no offset/count a client can send makes the slice ill-formed *)
Theorem dir_window_no_panic : forall ends off cnt,
  wf_ends ends -> 0 <= off -> 0 <= cnt -> dir_window ends off cnt <> DPanic.
Proof.
  intros ends off cnt Hwf _ Hcnt.
  destruct (dir_window_spec ends off cnt (wf_incr _ Hwf) Hcnt); discriminate.
Qed.

(* a successful reply consists of whole consecutive entries, at most count bytes,
   and is non-empty while entries remain *)
Theorem dir_reply_whole : forall ends off cnt n,
  wf_ends ends -> 0 <= off -> 0 <= cnt -> dir_window ends off cnt = DOk n ->
  0 <= n /\ n <= cnt /\
  (off <= total_of ends -> boundary ends off /\ boundary ends (off + n)) /\
  (off < total_of ends -> 0 < n) /\
  (total_of ends <= off -> n = 0).
Proof.
  intros ends off cnt n Hwf _ Hcnt.
  destruct (dir_window_spec ends off cnt (wf_incr _ Hwf) Hcnt) as [Hp| | |m Hb (Hr & Hb1 & _) Hpos];
    intros [= <-]; repeat split; solve [lia | assumption].
Qed.

(* an offset that is not an entry boundary is refused *)
Theorem dir_bad_offset : forall ends off cnt,
  wf_ends ends -> 0 < off -> off <= total_of ends -> ~ boundary ends off -> 0 <= cnt ->
  dir_window ends off cnt = DBadOffset.
Proof.
  intros ends off cnt Hwf _ Htot Hnb Hcnt.
  destruct (dir_window_spec ends off cnt (wf_incr _ Hwf) Hcnt); [lia | reflexivity | contradiction..].
Qed.

(* a count too small for the next entry yields an error, never a truncated or empty reply *)
Theorem dir_small_count_errors : forall ends off cnt,
  wf_ends ends -> boundary ends off -> off < total_of ends -> 0 <= cnt ->
  cnt < next_size 0 ends off ->
  dir_window ends off cnt = DTooSmall.
Proof.
  intros ends off cnt Hwf Hb Htot Hcnt Hsmall. assert (Hi := wf_incr _ Hwf).
  assert (Hoff := boundary_nonneg _ _ Hi Hb).
  destruct (next_size_spec ends 0 off Hi (proj1 (boundary_In _ _) Hb) Htot) as (_ & _ & Hgap).
  destruct (dir_window_spec ends off cnt Hi Hcnt) as [Hp| | |n _ (Hr & Hb1 & _) Hpos];
    [lia | contradiction | reflexivity | exfalso].
  specialize (Hpos Htot). destruct Hb1 as [|Hin]; [lia|]. specialize (Hgap _ Hin). lia.
Qed.

(* a count large enough for the next entry returns that entry and perhaps more *)
Lemma window_enough : forall ends off cnt,
  incr 0 ends -> boundary ends off -> off < total_of ends -> next_size 0 ends off <= cnt ->
  exists n, dir_window ends off cnt = DOk n /\ 0 < next_size 0 ends off <= n /\ boundary ends (off + n).
Proof.
  intros ends off cnt Hi Hb Htot Hcnt.
  destruct (next_size_spec ends 0 off Hi (proj1 (boundary_In _ _) Hb) Htot) as (Hs & Hin & _).
  assert (Hnb : boundary ends (off + next_size 0 ends off)) by (right; exact Hin).
  assert (Hnt := boundary_le_total _ _ Hi Hnb).
  destruct (dir_window_spec ends off cnt Hi ltac:(lia)) as [Hp| |_ _ (_ & _ & Hmax)|n _ (_ & Hbn & Hmax) _];
    [lia | contradiction | | exists n]; specialize (Hmax _ Hnb ltac:(lia)); [lia | auto with zarith].
Qed.

Theorem dir_enough_count_progress : forall ends off cnt,
  wf_ends ends -> boundary ends off -> off < total_of ends ->
  next_size 0 ends off <= cnt ->
  exists n, dir_window ends off cnt = DOk n /\ next_size 0 ends off <= n.
Proof.
  intros ends off cnt Hwf Hb Htot Hcnt.
  destruct (window_enough ends off cnt (wf_incr _ Hwf) Hb Htot Hcnt) as (n & E & H & _).
  exists n. split; [exact E | apply H].
Qed.

Lemma dir_window_at_total : forall ends c,
  incr 0 ends -> 0 <= c -> dir_window ends (total_of ends) c = DOk 0.
Proof.
  intros ends c Hi Hc.
  destruct (dir_window_spec ends (total_of ends) c Hi Hc) as [Hp|_ Hnb| |n _ (Hr & _) _];
    [lia | destruct (Hnb (total_boundary ends Hi)) | lia | f_equal; lia].
Qed.

(* number of entry ends beyond an offset: the measure for the listing loop *)
Definition count_gt (off : Z) (a : list Z) : nat :=
  length (filter (fun e => off <? e) a).

Lemma count_gt_le_length : forall a off, (count_gt off a <= length a)%nat.
Proof.
  induction a as [|e t IH]; intros off; unfold count_gt in *; cbn [filter length]; [lia|].
  specialize (IH off). destruct (off <? e); cbn [length]; lia.
Qed.

(* moving the offset forward never adds to the count, and takes off every end it passes *)
Lemma count_gt_decr : forall a x y, x <= y ->
  (count_gt y a <= count_gt x a)%nat /\
  (In y a -> x < y -> (count_gt y a < count_gt x a)%nat).
Proof.
  induction a as [|h t IH]; intros x y Hxy; [split; [apply Nat.le_refl | intros []]|].
  destruct (IH x y Hxy) as [IH1 IH2]. unfold count_gt in *. cbn [filter length].
  destruct (Z.ltb_spec x h); destruct (Z.ltb_spec y h); cbn [length]; (split; [lia|]);
    (intros [<-|Hin] He; [lia | specialize (IH2 Hin He); lia]).
Qed.

(* chunks (offset, n) tile [a, b) and each ends on an entry boundary *)
Inductive covers (ends : list Z) : Z -> Z -> list (Z * Z) -> Prop :=
| cov_nil a : covers ends a a []
| cov_cons a n b rest : 0 < n -> boundary ends (a + n) -> covers ends (a + n) b rest ->
                        covers ends a b ((a, n) :: rest).

(* from any boundary on, as long as the counts outnumber the entries that are left *)
Lemma listing_gen : forall ends, wf_ends ends ->
  forall counts off, boundary ends off ->
  Forall (fun c => max_size ends <= c) counts ->
  (count_gt off ends < length counts)%nat ->
  exists chunks, listing ends off counts = (chunks, DOk 0) /\
                 covers ends off (total_of ends) chunks.
Proof.
  intros ends Hwf. assert (Hi := wf_incr _ Hwf).
  induction counts as [|c rest IH]; intros off Hb Hall Hlen; cbn [length] in Hlen; [lia|].
  inversion Hall as [|? ? Hc Hrest]; subst. unfold max_size, entry_sizes in Hc.
  assert (Hoff := boundary_nonneg _ _ Hi Hb). assert (Htot := boundary_le_total _ _ Hi Hb).
  cbn [listing]. destruct (Z.eq_dec off (total_of ends)) as [->|Hne].
  - assert (Hc0 := fold_max_nonneg ends 0). rewrite dir_window_at_total by (assumption || lia).
    exists []. split; [reflexivity|constructor].
  - assert (Hsz := next_size_le_max ends 0 off).
    destruct (window_enough ends off c Hi Hb) as (n & -> & Hn & Hbn); [lia..|].
    assert (Hin : In (off + n) ends) by (destruct Hbn; [lia|assumption]).
    destruct (count_gt_decr ends off (off + n)) as [_ Hdec]; [lia|]. specialize (Hdec Hin ltac:(lia)).
    destruct (IH (off + n) Hbn Hrest) as (chunks & -> & Hcov); [lia|].
    destruct n as [|n|n]; [lia| |lia]. eexists. split; [reflexivity|].
    constructor; [lia|assumption..].
Qed.

(* following the offset rule with every count >= the largest entry returns the
   whole snapshot: the chunks tile [0, total) on entry boundaries (every entry
   exactly once, in order) and the listing ends with an empty reply *)
Theorem dir_listing_complete : forall ends counts,
  wf_ends ends -> Forall (fun c => max_size ends <= c) counts ->
  (length ends < length counts)%nat ->
  exists chunks, listing ends 0 counts = (chunks, DOk 0) /\ covers ends 0 (total_of ends) chunks.
Proof.
  intros ends counts Hwf Hall Hlen.
  apply listing_gen; [assumption|left; reflexivity|assumption|].
  assert (H := count_gt_le_length ends 0). lia.
Qed.

(* the client's Readdir(0) loop with iounit >= the largest entry gets everything *)
Theorem readdir_all : forall ends iounit,
  wf_ends ends -> max_size ends <= iounit ->
  exists chunks, readdir_chunks ends iounit = (chunks, DOk 0) /\ covers ends 0 (total_of ends) chunks.
Proof.
  intros ends iounit Hwf Hio. unfold readdir_chunks.
  apply dir_listing_complete; [assumption| |].
  - apply Forall_forall. intros x Hx. apply repeat_spec in Hx. subst. assumption.
  - rewrite repeat_length. lia.
Qed.
