(* Host paths and handler decisions of Ufs (Ufs/Path.v, Ufs/Handlers.v): clean and its fixed
   points, the walk loop as a relation (walks), every path a request sequence touches stays under
   the root (C18), what a walk returns (C16), the metadata bits of stat, the create plans (C17). *)
From Coq Require Import NArith List Bool PeanoNat Lia.
From V9 Require Import Lib.GoSem Lib.Bytes Gen.Consts Ufs.Path Ufs.Handlers.
Import ListNotations.
Local Open Scope N_scope.

Lemma bytes_eqb_iff : forall a b, bytes_eqb a b = true <-> a = b.
Proof.
  unfold bytes_eqb. induction a as [|x a IH]; intros [|y b]; simpl; split; intro H;
    try reflexivity; try discriminate.
  - apply andb_true_iff in H. destruct H as [H1 H2].
    apply andb_true_iff in H2. destruct H2 as [H2 H3].
    apply N.eqb_eq in H2. subst. f_equal. apply IH. rewrite H1, H3. reflexivity.
  - inversion H; subst. rewrite N.eqb_refl. simpl. apply IH. reflexivity.
Qed.

Lemma bytes_eqb_refl : forall a, bytes_eqb a a = true.
Proof. intros. apply bytes_eqb_iff. reflexivity. Qed.

Lemma comp_eqb_iff : forall a b, comp_eqb a b = true <-> a = b.
Proof. intros. unfold comp_eqb. apply bytes_eqb_iff. Qed.

Lemma comp_eqb_refl : forall a, comp_eqb a a = true.
Proof. intros. apply comp_eqb_iff. reflexivity. Qed.

#[local] Arguments comp_eqb : simpl never.

(* a component other than "." and ".." *)
Definition nd (c : comp) : bool := negb (comp_eqb c dot) && negb (comp_eqb c dotdot).

Lemma is_clean_nd : forall p, is_clean p = forallb nd p.
Proof. reflexivity. Qed.

Lemma nd_true : forall c, nd c = true -> comp_eqb c dot = false /\ comp_eqb c dotdot = false.
Proof.
  unfold nd. intros c H. rewrite andb_true_iff, !negb_true_iff in H. exact H.
Qed.

Lemma is_clean_cons : forall c p, is_clean (c :: p) = nd c && is_clean p.
Proof. reflexivity. Qed.

Lemma is_clean_app : forall a b, is_clean (a ++ b) = is_clean a && is_clean b.
Proof. intros. unfold is_clean. apply forallb_app. Qed.

Lemma is_clean_rev : forall a, is_clean (rev a) = is_clean a.
Proof.
  induction a as [|x a IH]; [reflexivity|].
  cbn [rev]. rewrite is_clean_app, IH, !is_clean_cons.
  change (is_clean []) with true. rewrite andb_true_r. apply andb_comm.
Qed.

Lemma is_clean_tl : forall s, is_clean s = true -> is_clean (tl s) = true.
Proof.
  intros [|x s] H; [exact H|]. rewrite is_clean_cons in H.
  apply andb_true_iff in H. apply H.
Qed.

Lemma clean_from_is_clean : forall cs stack,
  is_clean stack = true -> is_clean (clean_from stack cs) = true.
Proof.
  induction cs as [|c cs IH]; intros stack H; cbn [clean_from].
  - rewrite is_clean_rev. exact H.
  - destruct (comp_eqb c dot) eqn:E1; [apply IH; exact H|].
    destruct (comp_eqb c dotdot) eqn:E2.
    + apply IH. apply is_clean_tl. exact H.
    + apply IH. rewrite is_clean_cons, H. unfold nd. rewrite E1, E2. reflexivity.
Qed.

Lemma clean_from_app : forall a s b,
  clean_from s (a ++ b) = clean_from (rev (clean_from s a)) b.
Proof.
  induction a as [|c a IH]; intros s b; cbn [clean_from app].
  - rewrite rev_involutive. reflexivity.
  - destruct (comp_eqb c dot); [apply IH|].
    destruct (comp_eqb c dotdot); apply IH.
Qed.

Lemma clean_from_nd : forall cs s, is_clean cs = true -> clean_from s cs = rev s ++ cs.
Proof.
  induction cs as [|c cs IH]; intros s H; cbn [clean_from].
  - rewrite app_nil_r. reflexivity.
  - rewrite is_clean_cons in H. apply andb_true_iff in H. destruct H as [H1 H2].
    apply nd_true in H1. destruct H1 as [E1 E2]. rewrite E1, E2.
    rewrite IH by exact H2. cbn [rev]. rewrite <- app_assoc. reflexivity.
Qed.

Lemma clean_app_clean : forall a b, is_clean b = true -> clean (a ++ b) = clean a ++ b.
Proof.
  intros a b H. unfold clean. rewrite clean_from_app, clean_from_nd by exact H.
  rewrite rev_involutive. reflexivity.
Qed.

Lemma is_clean_removelast : forall p, is_clean p = true -> is_clean (removelast p) = true.
Proof.
  intros p. induction p as [|x p _] using rev_ind; intro H; [exact H|].
  rewrite removelast_last. rewrite is_clean_app in H. apply andb_true_iff in H. apply H.
Qed.

Lemma prefixb_iff : forall a b, prefixb a b = true <-> exists t, b = a ++ t.
Proof.
  induction a as [|x a IH]; intros b; cbn [prefixb].
  - split; [intros _; exists b; reflexivity | reflexivity].
  - destruct b as [|y b].
    + split; [discriminate | intros [t H]; discriminate].
    + rewrite andb_true_iff, comp_eqb_iff, IH. split.
      * intros [E [t Ht]]. subst. exists t. reflexivity.
      * intros [t Ht]. inversion Ht; subst. split; [reflexivity | exists t; reflexivity].
Qed.

Lemma prefixb_app : forall a b, prefixb a (a ++ b) = true.
Proof. intros. apply prefixb_iff. exists b. reflexivity. Qed.

Lemma prefixb_refl : forall a, prefixb a a = true.
Proof. intros. apply prefixb_iff. exists []. rewrite app_nil_r. reflexivity. Qed.

Lemma prefixb_app_r : forall a b c, prefixb a b = true -> prefixb a (b ++ c) = true.
Proof.
  intros a b c H. apply prefixb_iff in H. destruct H as [t Ht]. subst.
  apply prefixb_iff. exists (t ++ c). rewrite app_assoc. reflexivity.
Qed.

Lemma path_eqb_iff : forall a b, path_eqb a b = true <-> a = b.
Proof.
  intros a b. unfold path_eqb. rewrite andb_true_iff, Nat.eqb_eq, prefixb_iff. split.
  - intros [L [t Ht]]. subst. rewrite app_length in L.
    destruct t; [rewrite app_nil_r; reflexivity | cbn [length] in L; lia].
  - intros ->. split; [reflexivity | exists []; rewrite app_nil_r; reflexivity].
Qed.

Lemma path_eqb_refl : forall a, path_eqb a a = true.
Proof. intros. apply path_eqb_iff. reflexivity. Qed.

Lemma inside_removelast : forall root p,
  prefixb root p = true -> path_eqb p root = false -> prefixb root (removelast p) = true.
Proof.
  intros root p H E. apply prefixb_iff in H. destruct H as [t Ht]. subst.
  destruct t as [|x t].
  - rewrite app_nil_r, path_eqb_refl in E. discriminate.
  - rewrite removelast_app by discriminate. apply prefixb_app.
Qed.

Lemma valid_name_nd : forall w, valid_name w = true -> is_clean [w] = true.
Proof.
  intros w H. unfold valid_name in H. rewrite !andb_true_iff in H. destruct H as [[[_ H1] H2] _].
  rewrite is_clean_cons. unfold nd. rewrite H1, H2. reflexivity.
Qed.

Theorem clean_is_clean : forall p, is_clean (clean p) = true.
Proof. intros. unfold clean. apply clean_from_is_clean. reflexivity. Qed.

Theorem clean_of_clean : forall p, is_clean p = true -> clean p = p.
Proof. intros p H. unfold clean. rewrite clean_from_nd by exact H. reflexivity. Qed.

(* attach names: for ANY byte string the fid designates something under the root *)
Theorem attach_confined : forall root aname,
  is_clean root = true ->
  inside root (attach_path root aname) = true /\ is_clean (attach_path root aname) = true.
Proof.
  intros root aname H. unfold attach_path, inside.
  rewrite clean_app_clean by apply clean_is_clean.
  rewrite clean_of_clean by exact H. split.
  - apply prefixb_app.
  - rewrite is_clean_app, H. apply clean_is_clean.
Qed.

(* no walk element that is accepted leads out of the root, '..' at the root included;
   an element containing '/' is not accepted *)
Theorem walk_step_confined : forall root path w p',
  is_clean root = true -> inside root (clean path) = true ->
  walk_step root path w = Some p' -> inside root (clean p') = true.
Proof.
  intros root path w p' Hr Hin Hw. unfold walk_step in Hw. unfold inside in *.
  destruct (comp_eqb w dotdot) eqn:E1.
  - destruct (path_eqb (clean path) (clean root)) eqn:E2; inversion Hw; subst; [exact Hin|].
    unfold dir_of. rewrite (clean_of_clean root Hr) in E2.
    rewrite clean_of_clean by (apply is_clean_removelast, clean_is_clean).
    apply inside_removelast; assumption.
  - destruct (comp_eqb w dot) eqn:E2; [inversion Hw; subst; exact Hin|].
    destruct (valid_name w) eqn:V; [|discriminate]. inversion Hw; subst.
    rewrite clean_app_clean by (apply valid_name_nd; exact V).
    apply prefixb_app_r. exact Hin.
Qed.

Theorem dotdot_at_root_stays : forall root,
  is_clean root = true -> walk_step root root dotdot = Some root.
Proof.
  intros root _. unfold walk_step. rewrite comp_eqb_refl, path_eqb_refl. reflexivity.
Qed.

Theorem create_confined : forall root path name p,
  inside root (clean path) = true -> create_path path name = Some p ->
  inside root (clean p) = true /\ clean p = clean path ++ [name].
Proof.
  intros root path name p Hin Hc. unfold create_path in Hc. unfold inside in *.
  destruct (valid_name name) eqn:V; [|discriminate]. inversion Hc; subst.
  rewrite clean_app_clean by (apply valid_name_nd; exact V). split; [|reflexivity].
  apply prefixb_app_r. exact Hin.
Qed.

Theorem rename_confined : forall root path name d,
  rename_dest root path name = Some d -> inside (clean root) d = true /\ is_clean d = true.
Proof.
  intros root path name d H. unfold rename_dest in H.
  match type of H with (if ?c then _ else _) = _ => destruct c eqn:C end; [|discriminate].
  injection H as Hd. rewrite Hd in C.
  rewrite !andb_true_iff in C. destruct C as [[C _] _]. split; [exact C|].
  rewrite <- Hd. destruct name as [|c name]; [apply clean_is_clean|].
  destruct (c =? slash); apply clean_is_clean.
Qed.

Lemma clean_from_nodotdot : forall cs s,
  existsb (fun c => comp_eqb c dotdot) cs = false ->
  clean_from s cs = rev s ++ filter (fun c => negb (comp_eqb c dot)) cs.
Proof.
  induction cs as [|c cs IH]; intros s H; cbn [clean_from filter].
  - rewrite app_nil_r. reflexivity.
  - cbn [existsb] in H. apply orb_false_iff in H. destruct H as [H1 H2]. rewrite H1.
    destruct (comp_eqb c dot); cbn [negb].
    + apply IH. exact H2.
    + rewrite IH by exact H2. cbn [rev]. rewrite <- app_assoc. reflexivity.
Qed.

(* an accepted symlink target cannot lead out of the directory that holds the link *)
Theorem symlink_confined : forall linkdir ext,
  symlink_ok ext = true -> inside (clean linkdir) (symlink_resolves linkdir ext) = true.
Proof.
  intros linkdir ext H. unfold symlink_ok in H. apply andb_true_iff in H. destruct H as [_ H].
  apply negb_true_iff in H. unfold symlink_resolves, inside, clean.
  rewrite clean_from_app. rewrite (clean_from_nodotdot (split_slash ext)) by exact H.
  rewrite rev_involutive. apply prefixb_app.
Qed.

Definition fids_confined (root : hpath) (m : fidmap) : Prop :=
  forall k p, fm_get m k = Some p -> inside root (clean p) = true.

Lemma fids_confined_set : forall root m k p,
  fids_confined root m -> inside root (clean p) = true -> fids_confined root (fm_set m k p).
Proof.
  intros root m k p Hm Hp k' p' H. unfold fm_set in H. cbn [fm_get] in H.
  destruct (k =? k'); [inversion H; subst; exact Hp | eapply Hm; exact H].
Qed.

Lemma fids_confined_if : forall root m k p (ok : bool),
  fids_confined root m -> inside root (clean p) = true ->
  fids_confined root (if ok then fm_set m k p else m).
Proof. intros root m k p [] Hm Hp; [apply fids_confined_set; assumption | exact Hm]. Qed.

Lemma inside_clean : forall root p,
  is_clean p = true -> inside root p = true -> inside root (clean p) = true.
Proof. intros root p Hc Hi. rewrite clean_of_clean by exact Hc. exact Hi. Qed.

(* The cases of Ufs.Walk's loop: no names left, a name that is refused, an element that does
   not exist, an element that exists and the rest of the walk from it. *)
Inductive walks (exists_ : hpath -> bool) (root : hpath)
  : hpath -> list bytes -> nat -> hpath -> list hpath -> Prop :=
| walks_nil path : walks exists_ root path [] O path []
| walks_refused path w rest : walk_step root path w = None -> walks exists_ root path (w :: rest) O path []
| walks_missing path w rest p : walk_step root path w = Some p -> exists_ p = false ->
    walks exists_ root path (w :: rest) O path [p]
| walks_found path w rest p n q t : walk_step root path w = Some p -> exists_ p = true ->
    walks exists_ root p rest n q t -> walks exists_ root path (w :: rest) (S n) q (p :: t).

Lemma walk_loop_walks : forall exists_ root names path n q t,
  walk_loop exists_ root path names = (n, q, t) -> walks exists_ root path names n q t.
Proof.
  intros e root. induction names as [|w rest IH]; intros path n q t H; cbn [walk_loop] in H.
  - injection H as <- <- <-. constructor.
  - destruct (walk_step root path w) as [p|] eqn:W; [|injection H as <- <- <-; constructor; exact W].
    destruct (e p) eqn:E; [|injection H as <- <- <-; constructor; assumption].
    destruct (walk_loop e root p rest) as [[n' q'] t'] eqn:L. injection H as <- <- <-.
    constructor; [exact W | exact E | apply IH; exact L].
Qed.

Lemma walk_loop_confined : forall exists_ root names path n q t,
  is_clean root = true -> inside root (clean path) = true ->
  walk_loop exists_ root path names = (n, q, t) ->
  inside root (clean q) = true /\ Forall (fun p => inside root (clean p) = true) t.
Proof.
  intros e root names path n q t Hr Hp H. apply walk_loop_walks in H.
  induction H as [path|path w rest W|path w rest p W E|path w rest p n q t W E _ IH]; auto.
  - pose proof (walk_step_confined _ _ _ _ Hr Hp W). auto.
  - pose proof (walk_step_confined _ _ _ _ Hr Hp W) as Hc. destruct (IH Hc). auto.
Qed.

(* Ufs.Walk's answer, from what the loop reports: all names walked, none, or some *)
Lemma ufs_walk_eq : forall exists_ root path names,
  ufs_walk exists_ root path names =
  let '(n, q, t) := walk_loop exists_ root path names in
  (if (n =? length names)%nat then WOk n (Some q) else if (n =? 0)%nat then WErr else WOk n None, t).
Proof.
  intros e root path names. unfold ufs_walk. destruct names as [|w rest]; [reflexivity|].
  destruct (walk_loop e root path (w :: rest)) as [[[|n] q] t]; [reflexivity|].
  cbn [Nat.eqb length]. destruct (n =? length rest)%nat; reflexivity.
Qed.

Lemma ustep_confined : forall exists_ root m r ok,
  is_clean root = true -> fids_confined root m ->
  Forall (fun p => inside root (clean p) = true) (snd (ustep exists_ root m r ok)) /\
  fids_confined root (fst (ustep exists_ root m r ok)).
Proof.
  intros e root m r ok Hr Hm.
  destruct r as [fid aname|fid nf names|fid name tgt|fid name|fid]; cbn [ustep];
    [|destruct (fm_get m fid) as [path|] eqn:G; [pose proof (Hm _ _ G) as Hp | cbn; auto]..].
  - destruct (attach_confined root aname Hr) as [A1 A2]. apply inside_clean in A1; [|exact A2].
    cbn. auto using fids_confined_if.
  - rewrite ufs_walk_eq. destruct (walk_loop e root path names) as [[n q] t] eqn:L.
    destruct (walk_loop_confined _ _ _ _ _ _ _ Hr Hp L) as [Hq Ht].
    cbn. split; [constructor; assumption|].
    destruct (n =? length names)%nat; [apply fids_confined_set; assumption | destruct (n =? 0)%nat; exact Hm].
  - destruct (create_path path name) as [p|] eqn:C; [|cbn; auto].
    destruct (create_confined _ _ _ _ Hp C) as [Hc _].
    destruct (match tgt with Some e0 => symlink_ok e0 | None => true end); cbn;
      auto using fids_confined_if.
  - destruct (rename_dest root path name) as [d|] eqn:R; [|cbn; auto].
    destruct (rename_confined _ _ _ _ R) as [R1 R2].
    rewrite (clean_of_clean root Hr) in R1. apply inside_clean in R1; [|exact R2].
    cbn. auto using fids_confined_if.
  - cbn. auto.
Qed.

(* whatever the request sequence and whatever exists, every host path handed to the
   operating system and every fid stay under the root *)
Theorem all_touched_paths_confined : forall exists_ root rs m m' touched,
  is_clean root = true -> fids_confined root m ->
  urun exists_ root m rs = (m', touched) ->
  Forall (fun p => inside root (clean p) = true) touched /\ fids_confined root m'.
Proof.
  intros e root rs. induction rs as [|[r ok] rs IH]; intros m m' touched Hr Hm H;
    cbn [urun] in H.
  - inversion H; subst. split; [constructor | exact Hm].
  - destruct (ustep_confined e root m r ok Hr Hm) as [A1 A2].
    destruct (ustep e root m r ok) as [m1 t1].
    destruct (urun e root m1 rs) as [m2 t2] eqn:S2.
    inversion H; subst.
    destruct (IH _ _ _ Hr A2 S2) as [B1 B2].
    split; [apply Forall_app; split; assumption | exact B2].
Qed.

(* every walked element exists, and the one after the last walked does not *)
Theorem walk_loop_prefix : forall exists_ root names path n q touched,
  walk_loop exists_ root path names = (n, q, touched) ->
  (n <= length names)%nat /\
  Forall (fun p => exists_ p = true) (firstn n touched) /\
  (length touched = n \/ (length touched = S n /\ exists_ (last touched []) = false)).
Proof.
  intros e root names path n q touched H. apply walk_loop_walks in H.
  induction H as [path|path w rest W|path w rest p W E|path w rest p n q t W E _ (H1 & H2 & H3)];
    cbn; auto with arith.
  split; [lia|]. split; [constructor; assumption|].
  destruct H3 as [H3 | [H3 H4]]; [left; lia|]. right. split; [lia|].
  destruct t as [|x t]; [discriminate|]. exact H4.
Qed.

(* Rwalk carries one qid per existing leading element; the new fid moves only when
   every element was walked; a missing first element is an error *)
Theorem walk_result_shape : forall exists_ root path names res touched,
  ufs_walk exists_ root path names = (res, touched) ->
  match res with
  | WErr => names <> [] /\ (forall w rest p, names = w :: rest -> walk_step root path w = Some p -> exists_ p = false)
  | WOk n (Some q) => n = length names
  | WOk n None => (0 < n < length names)%nat
  end.
Proof.
  intros e root path names res touched H. rewrite ufs_walk_eq in H.
  destruct (walk_loop e root path names) as [[n q] t] eqn:L. injection H as <- _.
  destruct (Nat.eqb_spec n (length names)) as [E|E]; [exact E|].
  destruct (Nat.eqb_spec n 0) as [->|E0]; [|apply walk_loop_prefix in L; lia].
  split; [intros ->; apply E; reflexivity|]. intros w rest p -> W.
  apply walk_loop_walks in L. inversion L; congruence.
Qed.

(* one walk over all the names, however many: where it arrives if every element is accepted and exists *)
Fixpoint walk_full (exists_ : hpath -> bool) (root path : hpath) (names : list bytes) : option hpath :=
  match names with
  | [] => Some path
  | w :: rest =>
    match walk_step root path w with
    | None => None
    | Some p => if exists_ p then walk_full exists_ root p rest else None
    end
  end.

Lemma walk_loop_full : forall exists_ root names path n q t,
  walk_loop exists_ root path names = (n, q, t) ->
  (if (n =? length names)%nat then Some q else None) = walk_full exists_ root path names.
Proof.
  intros e root names path n q t H. apply walk_loop_walks in H.
  induction H as [path|path w rest W|path w rest p W E|path w rest p n q t W E _ IH];
    cbn [walk_full]; rewrite ?W, ?E; auto.
Qed.

Lemma ufs_walk_full : forall exists_ root path names,
  match fst (ufs_walk exists_ root path names) with
  | WOk n (Some q) => Some q
  | _ => None
  end = walk_full exists_ root path names.
Proof.
  intros e root path names. rewrite ufs_walk_eq.
  destruct (walk_loop e root path names) as [[n q] t] eqn:L.
  rewrite <- (walk_loop_full _ _ _ _ _ _ _ L). cbn [fst].
  destruct (n =? length names)%nat; [reflexivity | destruct (n =? 0)%nat; reflexivity].
Qed.

Lemma fwalk_chunks_step : forall exists_ root path c rest,
  fwalk_chunks exists_ root path (c :: rest) =
  match walk_full exists_ root path c with
  | Some q => fwalk_chunks exists_ root q rest
  | None => None
  end.
Proof.
  intros e root path c rest. cbn [fwalk_chunks]. rewrite ufs_walk_eq.
  destruct (walk_loop e root path c) as [[n q] t] eqn:L.
  rewrite <- (walk_loop_full _ _ _ _ _ _ _ L). cbn [fst].
  destruct (n =? length c)%nat eqn:E; [rewrite E; reflexivity | destruct (n =? 0)%nat; reflexivity].
Qed.

Lemma walk_full_app : forall exists_ root a b path,
  walk_full exists_ root path (a ++ b) =
  match walk_full exists_ root path a with
  | Some q => walk_full exists_ root q b
  | None => None
  end.
Proof.
  intros e root a b. induction a as [|w a IH]; intros path; cbn [walk_full app].
  - reflexivity.
  - destruct (walk_step root path w) as [p|]; [|reflexivity].
    destruct (e p); [apply IH | reflexivity].
Qed.

Lemma fwalk_chunks_full : forall exists_ root fuel names path,
  (length names <= fuel)%nat ->
  fwalk_chunks exists_ root path (chunks16 fuel names) = walk_full exists_ root path names.
Proof.
  intros e root fuel. induction fuel as [|f IH]; intros names path H.
  - destruct names; [reflexivity | cbn [length] in H; lia].
  - destruct names as [|x names]; [reflexivity|].
    cbn [chunks16]. rewrite fwalk_chunks_step.
    transitivity (walk_full e root path (firstn 16 (x :: names) ++ skipn 16 (x :: names)));
      [|rewrite firstn_skipn; reflexivity].
    rewrite walk_full_app.
    destruct (walk_full e root path (firstn 16 (x :: names))) as [q|]; [|reflexivity].
    apply IH. rewrite skipn_length. cbn [length] in *. lia.
Qed.

(* a walk of any depth through the client (16 names per Twalk) resolves like one walk *)
Theorem fwalk_resolves : forall exists_ root rp p,
  fwalk exists_ root rp p =
  match fst (ufs_walk exists_ root rp (split_slash p)) with
  | WOk n (Some q) => Some q
  | _ => None
  end.
Proof.
  intros e root rp p. unfold fwalk. destruct (split_slash p) as [|x names] eqn:Sp.
  - reflexivity.
  - rewrite ufs_walk_full. apply fwalk_chunks_full.
    apply Nat.le_succ_diag_r.
Qed.

Lemma perm_land_511 : forall p, p < 512 -> N.land p 511 = p.
Proof.
  intros p H. change 511 with (N.ones 9). rewrite N.land_ones.
  apply N.mod_small. exact H.
Qed.

Lemma perm_high_bits : forall p n, p < 512 -> N.testbit 511 n = false -> N.testbit p n = false.
Proof.
  intros p n H Hn. rewrite <- (perm_land_511 p H), N.land_spec, Hn. apply andb_false_r.
Qed.

(* [bit b v] has the bits of v, or none *)
Lemma testbit_bit : forall b v n, N.testbit (bit b v) n = b && N.testbit v n.
Proof. intros [] v n; [reflexivity | apply N.bits_0]. Qed.

Lemma land_bit : forall b v m, N.land (bit b v) m = bit b (N.land v m).
Proof. intros [] v m; reflexivity. Qed.

Lemma bit_0 : forall b, bit b 0 = 0.
Proof. intros []; reflexivity. Qed.

(* qid and mode bits mirror the file's metadata.  Bits 7 and 1 of the qid type are QTDIR and
   QTSYMLINK, bits 31 and 25 of the mode DMDIR and DMSYMLINK; 511 masks the permission bits. *)
Theorem stat_mirrors_inode : forall f dotu,
  fi_perm f < 512 ->
  N.testbit (dir2qidtype f) 7 = fi_dir f /\
  N.testbit (dir2qidtype f) 1 = fi_symlink f /\
  N.testbit (dir2npmode f dotu) 31 = fi_dir f /\
  N.land (dir2npmode f dotu) 511 = fi_perm f /\
  N.testbit (dir2npmode f true) 25 = fi_symlink f /\
  N.testbit (dir2npmode f false) 25 = false /\
  snd (dir2qid f) = fi_ino f.
Proof.
  intros f dotu H. unfold dir2qidtype, dir2npmode, dir2qid.
  pose proof (perm_high_bits (fi_perm f) 31 H eq_refl) as P31.
  pose proof (perm_high_bits (fi_perm f) 25 H eq_refl) as P25.
  repeat split.
  - rewrite N.lor_spec, !testbit_bit. cbn. now rewrite andb_true_r, andb_false_r, orb_false_r.
  - rewrite N.lor_spec, !testbit_bit. cbn. now rewrite andb_true_r, andb_false_r.
  - rewrite !N.lor_spec, P31, testbit_bit.
    destruct dotu; [rewrite !N.lor_spec, !testbit_bit|]; cbn;
      now rewrite ?andb_false_r, andb_true_r, orb_false_r.
  - rewrite !N.land_lor_distr_l, (perm_land_511 _ H), land_bit.
    destruct dotu; [rewrite !N.land_lor_distr_l, !land_bit|]; cbn; now rewrite ?bit_0, ?N.lor_0_r.
  - rewrite !N.lor_spec, P25, !testbit_bit. cbn. rewrite !andb_false_r, andb_true_r. apply orb_false_r.
  - rewrite !N.lor_spec, P25, testbit_bit. now rewrite andb_false_r.
Qed.

Definition acc_eqb (a b : access) : bool :=
  match a, b with
  | RDONLY, RDONLY | WRONLY, WRONLY | RDWR, RDWR => true
  | _, _ => false
  end.
Definition fl_eqb (x y : access * bool) : bool :=
  acc_eqb (fst x) (fst y) && Bool.eqb (snd x) (snd y).

Lemma fl_eqb_eq : forall x y, fl_eqb x y = true -> x = y.
Proof. intros [[] []] [[] []] H; try reflexivity; discriminate. Qed.

Lemma omode_check :
  forallb (fun m => fl_eqb (omode2uflags m) (spec_flags m)) (map N.of_nat (seq 0 256)) = true.
Proof. vm_compute. reflexivity. Qed.

(* all 256 open modes *)
Theorem omode_flags_all : forall m, m < 256 -> omode2uflags m = spec_flags m.
Proof.
  intros m H. apply fl_eqb_eq.
  apply (proj1 (forallb_forall _ _) omode_check m).
  apply in_map_iff. exists (N.to_nat m). split; [apply N2Nat.id|].
  apply in_seq. lia.
Qed.

(* a create issues exactly the one corresponding POSIX operation *)
Theorem create_plan_is_spec : forall dotu dirpath name perm mode ext linksrc ops,
  mode < 256 ->
  (has_bit_n perm c_DMDIR = true -> mode = c_OREAD) ->
  has_bit_n perm c_DMNAMEDPIPE = false ->
  create_plan dotu dirpath name perm mode ext linksrc = CPlan ops ->
  filter mutating ops = match create_spec dotu dirpath name perm mode ext linksrc with Some o => [o] | None => [] end.
Proof.
  intros dotu dirpath name perm mode ext linksrc ops Hm Hd Hp H.
  unfold create_plan in H. unfold create_spec.
  destruct (create_path dirpath name) as [p|]; [|discriminate].
  destruct (has_bit_n perm c_DMDIR) eqn:D.
  { rewrite (Hd eq_refl) in H. inversion H; subst. reflexivity. }
  destruct (has_bit_n perm c_DMSYMLINK).
  { destruct (symlink_ok ext); inversion H; subst; reflexivity. }
  destruct (has_bit_n perm c_DMLINK).
  { destruct linksrc; inversion H; subst; reflexivity. }
  rewrite Hp in *.
  destruct (has_bit_n perm c_DMDEVICE); [discriminate|].
  inversion H; subst.
  rewrite <- (omode_flags_all mode Hm). reflexivity.
Qed.
