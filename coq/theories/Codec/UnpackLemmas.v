(* The readers of Codec/Unpack.v: what each consumes and returns on arbitrary input, and that
   each reads back what the layout writes.  Used by Codec/UnpackProofs.v. *)
From Coq Require Import NArith ZArith List Bool PeanoNat Lia.
From Coq Require Import ZifyN ZifyNat ZifyBool.
From V9 Require Import Lib.GoSem Lib.Bytes Lib.ListFacts Gen.Consts Codec.Msg Codec.Unpack
  Codec.PackProofs.
Import ListNotations.
Local Open Scope N_scope.

Lemma all_bytes_app a b : all_bytes (a ++ b) = all_bytes a && all_bytes b.
Proof. apply forallb_app. Qed.

Lemma all_bytes_firstn n p : all_bytes p = true -> all_bytes (firstn n p) = true.
Proof.
  intros H. rewrite <- (firstn_skipn n p), all_bytes_app in H.
  apply andb_true_iff in H. tauto.
Qed.

Lemma all_bytes_skipn n p : all_bytes p = true -> all_bytes (skipn n p) = true.
Proof.
  intros H. rewrite <- (firstn_skipn n p), all_bytes_app in H.
  apply andb_true_iff in H. tauto.
Qed.

Lemma le_dec_bound l : all_bytes l = true -> le_dec l < 256 ^ N.of_nat (length l).
Proof.
  induction l as [|a l IH]; intros H.
  - cbn. lia.
  - cbn [all_bytes forallb] in H. apply andb_true_iff in H. destruct H as [Ha Hl].
    unfold is_byte in Ha. specialize (IH Hl).
    cbn [length le_dec]. rewrite Nat2N.inj_succ, N.pow_succ_r'.
    set (P := 256 ^ N.of_nat (length l)) in *. clearbody P. lia.
Qed.

Lemma le_dec_firstn_lt k p : all_bytes p = true -> le_dec (firstn k p) < 256 ^ N.of_nat k.
Proof.
  intros H. eapply N.lt_le_trans.
  - apply le_dec_bound, all_bytes_firstn, H.
  - apply N.pow_le_mono_r; [lia|]. pose proof (firstn_le_length k p). lia.
Qed.

Lemma wf_str_bytes s : wf_str s = true -> all_bytes s = true.
Proof. unfold wf_str. intros H. apply andb_true_iff in H. tauto. Qed.

Lemma wf_str_len s : wf_str s = true -> len s <= u16max.
Proof. unfold wf_str. intros H. apply andb_true_iff in H as [H _]. apply N.leb_le, H. Qed.

#[export] Hint Resolve all_bytes_firstn all_bytes_skipn : wf.

Definition wp {A} (r : res A) (Q : A -> Prop) : Prop :=
  match r with Ok a => Q a | Err _ => True | Panic | OutOfFuel => False end.

Lemma wp_seq {A C} (r : res A) (f : A -> res C) P Q :
  wp r P -> (forall a, P a -> wp (f a) Q) -> wp (bind r f) Q.
Proof. destruct r; cbn [wp bind]; auto. Qed.

Lemma wp_mono {A} (r : res A) (P Q : A -> Prop) : wp r P -> (forall a, P a -> Q a) -> wp r Q.
Proof. destruct r; cbn [wp]; auto. Qed.

Lemma wp_ok {A} (r : res A) Q a : wp r Q -> r = Ok a -> Q a.
Proof. intros H ->. exact H. Qed.

Lemma wp_no_panic {A} (r : res A) Q : wp r Q -> r <> Panic /\ r <> OutOfFuel.
Proof. destruct r; intros H; try contradiction; split; discriminate. Qed.

(* One step through a reader's body: a reader under [bind], whose lemma is looked up in
   the database [readers] and whose postcondition lands in the context; a guard; a
   return. *)
Create HintDb readers discriminated.

Ltac rstep :=
  lazymatch goal with
  | |- wp (bind _ _) _ =>
      let H := fresh in
      eapply wp_seq;
      [solve [eauto with readers] | intros [? ?] H; hnf in H; decompose [and] H; clear H]
  | |- wp (if ?c then _ else _) _ => destruct c eqn:?
  | |- wp (Err _) _ => exact I
  | |- wp (Ok _) _ => unfold wp
  end; cbv beta iota.

(* goals [b1 && ... && bn = true] about wire types, from the facts in the context *)
Ltac wf_all :=
  repeat match goal with |- _ && _ = true => apply andb_true_intro; split end; eauto with wf.

Lemma gint_ok k p : (k <= length p)%nat -> gint k p = Ok (le_dec (firstn k p), skipn k p).
Proof. intros H. unfold gint. destruct (length p <? k)%nat eqn:E; [lia|reflexivity]. Qed.

Lemma gint_val k p v r : gint k p = Ok (v, r) ->
  (k <= length p)%nat /\ v = le_dec (firstn k p) /\ r = skipn k p.
Proof.
  unfold gint. destruct (length p <? k)%nat eqn:E; [discriminate|].
  intros H; inversion H; subst. repeat split; lia.
Qed.

Lemma wf_count n k : n = N.to_nat k -> k < 256 ^ N.of_nat 2 -> (N.of_nat n <=? u16max) = true.
Proof. intros -> H. rewrite N2Nat.id. apply wf_u16_pow, H. Qed.

#[export] Hint Resolve wf_count : wf.

(* select the branch of [unpack_body] for a literal type number *)
Ltac ub_red :=
  cbn [unpack_body c_Tversion c_Rversion c_Tauth c_Rauth c_Tattach c_Rattach c_Terror c_Rerror
       c_Tflush c_Rflush c_Twalk c_Rwalk c_Topen c_Ropen c_Tcreate c_Rcreate c_Tread c_Rread
       c_Twrite c_Rwrite c_Tclunk c_Rclunk c_Tremove c_Rremove c_Tstat c_Rstat c_Twstat c_Rwstat
       N.eqb Pos.eqb orb].

(* The readers on arbitrary input: no panic, how many bytes are consumed, and, under
   any condition B that makes the input a string of bytes ([False]: nothing is known;
   [all_bytes buf = true] for the packet buf being decoded), the rest is one too
   and the value read is representable. *)

Section Readers.
  Variable B : Prop.

  (* lengths do not depend on the conditional facts, and lia is slow in their presence *)
  Ltac len_lia := repeat match goal with H : B -> _ |- _ => clear H end; unfold len in *; lia.
  Hint Extern 1 (_ <= _)%nat => len_lia : readers.

  Lemma gint_wp k p : (k <= length p)%nat -> (B -> all_bytes p = true) ->
    wp (gint k p) (fun '(v, r) =>
      length p = (k + length r)%nat /\ (B -> all_bytes r = true) /\ (B -> v < 256 ^ N.of_nat k)).
  Proof.
    intros Hk Hb. rewrite gint_ok by exact Hk. split; [|split].
    - rewrite skipn_length. lia.
    - auto with wf.
    - intros HB. apply le_dec_firstn_lt, Hb, HB.
  Qed.

  Lemma gstr_or_wp e p : (B -> all_bytes p = true) ->
    wp (gstr_or e p) (fun '(s, r) =>
      length p = (2 + length s + length r)%nat /\ (B -> all_bytes r = true) /\ (B -> wf_str s = true)).
  Proof.
    intros Hb. unfold gstr_or, gstr.
    destruct (length p <? 2)%nat eqn:E1; [exact I|].
    destruct (length (skipn 2 p) <? _)%nat eqn:E2; [exact I|].
    rewrite skipn_length in E2. split; [|split].
    - rewrite firstn_length, !skipn_length. lia.
    - auto with wf.
    - intros HB. specialize (Hb HB). unfold wf_str. apply andb_true_iff. split; [|auto with wf].
      pose proof (le_dec_firstn_lt 2 p Hb) as Hlt. change (256 ^ N.of_nat 2) with 65536 in Hlt.
      unfold len, u16max. rewrite firstn_length, skipn_length. lia.
  Qed.

  Hint Resolve gint_wp gstr_or_wp : readers.

  Lemma gqid_wp p : (13 <= length p)%nat -> (B -> all_bytes p = true) ->
    wp (gqid p) (fun '(q, r) =>
      length p = (13 + length r)%nat /\ (B -> all_bytes r = true) /\ (B -> wf_qid q = true)).
  Proof.
    intros Hl Hb. unfold gqid. repeat rstep.
    split; [lia | split; [assumption|]]. intros HB. unfold wf_qid. cbn [q_type q_vers q_path]. wf_all.
  Qed.

  Hint Resolve gqid_wp : readers.

  Lemma gnames_wp k : forall p, (B -> all_bytes p = true) ->
    wp (gnames k p) (fun '(names, r) =>
      length names = k /\ len p = fields_len (map FS names) + len r /\
      (B -> all_bytes r = true) /\ (B -> forallb wf_str names = true)).
  Proof.
    induction k; intros p Hb; cbn [gnames]; [repeat split; auto|].
    repeat rstep. cbn [map length forallb fields_len field_len].
    split; [len_lia | split; [len_lia | split; [assumption | intros HB; wf_all]]].
  Qed.

  Lemma gqids_wp k : forall p, (13 * k <= length p)%nat -> (B -> all_bytes p = true) ->
    wp (gqids k p) (fun '(qs, r) =>
      length qs = k /\ length p = (13 * k + length r)%nat /\
      (B -> all_bytes r = true) /\ (B -> forallb wf_qid qs = true)).
  Proof.
    induction k; intros p Hl Hb; cbn [gqids]; [repeat split; auto|].
    repeat rstep. cbn [length forallb].
    split; [len_lia | split; [len_lia | split; [assumption | intros HB; wf_all]]].
  Qed.

  Lemma gunamenum_wp p : (B -> all_bytes p = true) ->
    wp (gunamenum p) (fun '(v, r) =>
      ((length p = 4 + length r)%nat \/ (length p = 0 /\ length r = 0 /\ v = c_NOUID)%nat) /\
      (B -> all_bytes r = true) /\ (B -> wf_u32 v = true)).
  Proof.
    intros Hb. unfold gunamenum. destruct (0 <? length p)%nat eqn:E0.
    - destruct (length p <? 4)%nat eqn:E; [exact I|].
      eapply wp_mono; [apply gint_wp; [lia | exact Hb]|]. intros [v r] (? & ? & ?). repeat split; auto with wf.
    - destruct p; [|discriminate E0]. repeat split; auto.
  Qed.

  Hint Resolve gnames_wp gqids_wp gunamenum_wp : readers.

  Lemma gstat_wp dotu p : (B -> all_bytes p = true) ->
    wp (gstat dotu p) (fun '(szd, r) =>
      len p = len (spec_stat dotu (snd szd)) + len r /\ norm_dir dotu (snd szd) = snd szd /\
      (B -> all_bytes r = true) /\ (B -> wf_dir_fields dotu (snd szd) = true)).
  Proof.
    intros Hb. unfold gstat. destruct (length p <? _)%nat eqn:E0; [exact I|].
    repeat rstep.
    all: cbn [snd];
      (split; [|split; [reflexivity | split; [assumption | intros HB; unfold wf_dir_fields]]]);
      rewrite <- ?statsz_spec; unfold Pack.statsz;
      cbn [d_type d_dev d_qid d_mode d_atime d_mtime d_length
           d_name d_uid d_gid d_muid d_ext d_uidnum d_gidnum d_muidnum];
      [len_lia | wf_all].
  Qed.

  Hint Resolve gstat_wp : readers.

  Lemma ty_cases ty : 100 <= ty -> ty < 128 ->
    ty = 100 \/ ty = 101 \/ ty = 102 \/ ty = 103 \/ ty = 104 \/ ty = 105 \/ ty = 106 \/ ty = 107 \/
    ty = 108 \/ ty = 109 \/ ty = 110 \/ ty = 111 \/ ty = 112 \/ ty = 113 \/ ty = 114 \/ ty = 115 \/
    ty = 116 \/ ty = 117 \/ ty = 118 \/ ty = 119 \/ ty = 120 \/ ty = 121 \/ ty = 122 \/ ty = 123 \/
    ty = 124 \/ ty = 125 \/ ty = 126 \/ ty = 127.
  Proof. lia. Qed.

  (* one goal for each type number 100..127, the number put in for [ty]; the loop leaves the
     last disjunct as it is *)
  Ltac ty_split ty H1 H2 :=
    let C := fresh "C" in
    pose proof (ty_cases ty H1 H2) as C; clear H1 H2;
    repeat (destruct C as [C|C]; [subst ty|]); [..|subst ty].

  Lemma minsz_plain_le (dotu : bool) i sz :
    nth_error (if dotu then c_minFcusize else c_minFcsize) i = Some sz ->
    exists sz0, nth_error c_minFcsize i = Some sz0 /\ sz0 <= sz.
  Proof.
    destruct dotu; [|intros H; exists sz; split; [exact H | lia]].
    do 34 (destruct i as [|i];
           [intros H; vm_compute in H; injection H as <-; eexists; split; [reflexivity | lia]|]).
    destruct i; discriminate.
  Qed.

  (* The minimum-size table makes every fixed-offset read of a body safe (the 9P2000
     sizes suffice; the dialect is looked at only where the code does).  What is
     decoded re-encodes to at most what was consumed, with one exception: Tauth and
     Tattach in 9P2000.u may come without n_uname and then re-encode 4 bytes longer. *)
  Lemma unpack_body_wp (dotu : bool) ty p sz :
    100 <= ty -> ty < 128 ->
    nth_error (if dotu then c_minFcusize else c_minFcsize) (N.to_nat (ty - 100)) = Some sz ->
    sz <= len p -> (B -> all_bytes p = true) ->
    wp (unpack_body dotu ty p) (fun '(m, rest) =>
      typ m = ty /\ norm_msg dotu m = m /\
      len (enc_fields (layout dotu m)) + len rest
        <= len p + (if (ty =? c_Tauth) || (ty =? c_Tattach) then 4 else 0) /\
      (B -> wf_fields dotu m = true)).
  Proof.
    intros H1 H2 Hn Hl Hb. apply minsz_plain_le in Hn as (sz0 & Hn & Hle).
    ty_split ty H1 H2; vm_compute in Hn; injection Hn as <-.
    all: ub_red; repeat rstep.
    all: split; [reflexivity | split; [|split]];
         [try destruct dotu; first [reflexivity | cbn [norm_msg]; congruence]
         | | intros HB; cbn [wf_fields]; wf_all].
    all: len_fields; rewrite ?fields_len_FQ; unfold len;
         rewrite ?firstn_length, ?skipn_length; cbn [length]; len_lia.
  Qed.
End Readers.

(* Unpack after the checks on the frame: type, minimum size, body, nothing left over *)
Definition unpack_framed (dotu : bool) (ty tag size : N) (p : bytes) : res (N * msg * N) :=
  if (ty <? c_Tversion) || (c_Tlast <=? ty) then Err e_invalid_id
  else
    match nth_error (if dotu then c_minFcusize else c_minFcsize) (N.to_nat (ty - c_Tversion)) with
    | None => Panic
    | Some sz =>
      if size <? sz + 7 then Err e_szerror
      else
        do (m, rest) <- unpack_body dotu ty p;
        if (0 <? length rest)%nat then Err e_szerror else Ok (tag, m, size)
    end.

Lemma unpack_unfold dotu buf :
  unpack dotu buf =
  if (length buf <? 7)%nat || ((len buf <? le_dec (firstn 4 buf)) || (le_dec (firstn 4 buf) <? 7))
  then Err e_short
  else unpack_framed dotu (le_dec (firstn 1 (skipn 4 buf))) (le_dec (firstn 2 (skipn 5 buf)))
         (le_dec (firstn 4 buf)) (firstn (N.to_nat (le_dec (firstn 4 buf)) - 7) (skipn 7 buf)).
Proof.
  unfold unpack. destruct (length buf <? 7)%nat; [reflexivity|]. cbn [orb].
  destruct (_ || _); reflexivity.
Qed.

(* what [unpack] returns on [buf]; B as for the readers *)
Record unpacked (B : Prop) (dotu : bool) (buf : bytes) (t : N) (m : msg) (n : N) : Prop := {
  up_size : n = le_dec (firstn 4 buf);
  up_min : 7 <= n;
  up_max : n <= len buf;
  up_tag : t = le_dec (firstn 2 (skipn 5 buf));
  up_typ : typ m = le_dec (firstn 1 (skipn 4 buf));
  up_norm : norm_msg dotu m = m;
  up_len : 7 + len (enc_fields (layout dotu m))
             <= n + (if (typ m =? c_Tauth) || (typ m =? c_Tattach) then 4 else 0);
  up_wf : B -> wf_fields dotu m = true /\ wf_u16 t = true }.
Arguments up_len {B dotu buf t m n}.
Arguments up_wf {B dotu buf t m n}.

Lemma unpack_wp (B : Prop) dotu buf : (B -> all_bytes buf = true) ->
  wp (unpack dotu buf) (fun '(t, m, n) => unpacked B dotu buf t m n).
Proof.
  intros Hb. rewrite unpack_unfold. destruct (_ || _) eqn:E0; [exact I|].
  unfold unpack_framed, c_Tversion, c_Tlast.
  set (n := le_dec (firstn 4 buf)) in *. set (ty := le_dec (firstn 1 (skipn 4 buf))).
  set (p := firstn (N.to_nat n - 7) (skipn 7 buf)).
  assert (Hp : len p = n - 7) by (unfold p, len in *; rewrite firstn_length, skipn_length; lia).
  destruct ((ty <? 100) || (128 <=? ty)) eqn:E1; [exact I|].
  destruct (nth_error _ _) as [sz|] eqn:En.
  2:{ apply nth_error_None in En.
      destruct dotu; [change (length c_minFcusize) with 34%nat in En
                     | change (length c_minFcsize) with 34%nat in En]; lia. }
  destruct (n <? sz + 7) eqn:E2; [exact I|].
  eapply wp_seq.
  - apply (unpack_body_wp B dotu ty p sz); try lia; try exact En. unfold p. auto with wf.
  - intros [m rest] (Hty & Hnorm & Hlen & Hw). destruct (0 <? length rest)%nat eqn:E3; [exact I|].
    unfold wp; cbv beta iota.
    split; rewrite ?Hty; try (reflexivity || assumption || (unfold len in *; lia)).
    intros HB. split; [apply Hw, HB|]. apply wf_u16_pow, le_dec_firstn_lt. auto with wf.
Qed.

Lemma unpack_ok (B : Prop) dotu buf t m n :
  (B -> all_bytes buf = true) -> unpack dotu buf = Ok (t, m, n) -> unpacked B dotu buf t m n.
Proof. intros Hb H. exact (wp_ok _ _ _ (unpack_wp B dotu buf Hb) H). Qed.

Lemma gint_app k a rest : length a = k -> gint k (a ++ rest) = Ok (le_dec a, rest).
Proof.
  intros H. rewrite gint_ok by (rewrite app_length; lia).
  now rewrite firstn_app_exact, skipn_app_exact.
Qed.

Lemma gint_enc k v rest : v < 256 ^ N.of_nat k -> gint k (le_enc k v ++ rest) = Ok (v, rest).
Proof.
  intros H. rewrite gint_app by apply le_enc_length. now rewrite le_dec_enc.
Qed.

Lemma gstr_or_app e h s rest :
  length h = 2%nat -> N.to_nat (le_dec h) = length s ->
  gstr_or e (h ++ s ++ rest) = Ok (s, rest).
Proof.
  intros Hh Hs. unfold gstr_or, gstr.
  rewrite (firstn_app_exact h _ 2 Hh), (skipn_app_exact h _ 2 Hh), Hs.
  rewrite !app_length, Hh.
  destruct (2 + (length s + length rest) <? 2)%nat eqn:E1; [lia|].
  destruct (length s + length rest <? length s)%nat eqn:E2; [lia|].
  cbn [bind]. now rewrite firstn_app_exact, skipn_app_exact.
Qed.

Lemma gstr_or_enc e s rest : wf_str s = true ->
  gstr_or e (le_enc 2 (len s) ++ s ++ rest) = Ok (s, rest).
Proof.
  intros H. apply gstr_or_app; [apply le_enc_length|].
  rewrite le_dec_enc by apply wf_u16_pow, N.leb_le, wf_str_len, H. apply Nat2N.id.
Qed.

(* every hypothesis [_ && _ = true] into its conjuncts *)
Ltac split_andb :=
  repeat match goal with
  | H : _ && _ = true |- _ => apply andb_true_iff in H; destruct H
  end.

(* the next reader of a body meets the encoding it reads: an integer or a string *)
Ltac estep :=
  first [ rewrite gint_enc by auto with wf | rewrite gstr_or_enc by assumption ]; cbn [bind].

Lemma gqid_enc q rest : wf_qid q = true ->
  gqid (le_enc 1 (q_type q) ++ le_enc 4 (q_vers q) ++ le_enc 8 (q_path q) ++ rest) = Ok (q, rest).
Proof.
  unfold wf_qid. intros H. split_andb. unfold gqid. repeat estep. destruct q; reflexivity.
Qed.

Lemma gnames_enc names : forall rest, forallb wf_str names = true ->
  gnames (length names) (enc_fields (map FS names) ++ rest) = Ok (names, rest).
Proof.
  induction names as [|s l IH]; intros rest H; [reflexivity|].
  cbn [forallb] in H. split_andb.
  cbn [length gnames map]. rewrite enc_fields_cons. cbn [enc_field].
  rewrite <- !app_assoc. estep. now rewrite IH.
Qed.

Lemma gqids_enc qs : forall rest, forallb wf_qid qs = true ->
  gqids (length qs) (enc_fields (map FQ qs) ++ rest) = Ok (qs, rest).
Proof.
  induction qs as [|q l IH]; intros rest H; [reflexivity|].
  cbn [forallb] in H. split_andb.
  cbn [length gqids map]. rewrite enc_fields_cons. cbn [enc_field].
  rewrite <- !app_assoc, gqid_enc by assumption. cbn [bind]. now rewrite IH.
Qed.

(* the size field comes back as it is read: nothing here bounds the length it was written from *)
Lemma gstat_enc dotu d rest : wf_dir_fields dotu d = true ->
  gstat dotu (spec_stat dotu d ++ rest) =
  Ok (le_dec (le_enc 2 (len (enc_fields (stat_fields dotu d)))), norm_dir dotu d, rest).
Proof.
  intros H. set (inp := spec_stat dotu d ++ rest).
  assert (Hmin : (2 + 2 + 4 + 13 + 4 + 4 + 4 + 8 <= length inp)%nat).
  { pose proof (statsz_spec dotu d) as Hs. unfold Pack.statsz, len in Hs.
    unfold inp. rewrite app_length. lia. }
  set (sz := len (enc_fields (stat_fields dotu d))).
  (* the input as a sequence of fields, worked out before the reader is unfolded *)
  eassert (E : inp = _).
  { unfold inp, spec_stat. cbv zeta. fold sz. clearbody sz. unfold stat_fields.
    cbn [app]. rewrite !enc_fields_cons. cbn [enc_field]. rewrite <- !app_assoc. reflexivity. }
  clearbody inp sz. unfold gstat. destruct (length inp <? _)%nat eqn:E0; [lia|].
  clear E0 Hmin. subst inp. unfold wf_dir_fields in H. split_andb.
  rewrite gint_app by apply le_enc_length; cbn [bind].
  repeat first [estep | rewrite gqid_enc by assumption; cbn [bind]].
  destruct dotu; split_andb; enc_norm; rewrite <- ?app_assoc.
  - repeat estep.
    destruct (length _ <? _)%nat eqn:E1;
      [exfalso; clear - E1; rewrite ?app_length, ?le_enc_length in E1; lia|].
    repeat estep. destruct d; reflexivity.
  - destruct d; reflexivity.
Qed.

Lemma unpack_body_enc dotu m :
  wf_fields dotu m = true -> len (enc_fields (layout dotu m)) <= u32max ->
  unpack_body dotu (proto_typ m) (enc_fields (layout dotu m)) = Ok (norm_msg dotu m, []).
Proof.
  intros Hw Hs. rewrite len_enc_fields in Hs.
  destruct m; cbn [proto_typ wf_fields layout app fields_len field_len] in *;
    try match goal with |- context [if dotu then _ else _] => destruct dotu end;
    split_andb; enc_norm; rewrite <- ?app_assoc; ub_red;
    repeat first [estep | rewrite gqid_enc by assumption; cbn [bind]].
  all: try solve [reflexivity | destruct dotu; reflexivity].
  (* Tauth / Tattach, dotu: four bytes are left, so the numeric uname is read from them *)
  1-2: change (gunamenum ?p) with (gint 4 p);
       rewrite gint_enc by (apply wf_u32_pow; assumption); reflexivity.
  (* Twalk, Rwalk *)
  1-2: destruct (_ <? _) eqn:E0;
       [rewrite len_enc_fields, ?fields_len_FS, ?fields_len_FQ in E0; lia|];
       rewrite Nat2N.id, <- (app_nil_r (enc_fields _)), ?gnames_enc, ?gqids_enc by assumption;
       destruct dotu; reflexivity.
  (* Rread, Twrite *)
  1-2: unfold u32max in Hs;
       rewrite gint_enc by (apply wf_u32_pow, N.leb_le; unfold u32max; lia); cbn [bind];
       rewrite app_nil_r, ?N.ltb_irrefl, ?N.eqb_refl; cbn [negb];
       rewrite ?firstn_len; unfold len; rewrite ?Nat2N.id, ?skipn_all; destruct dotu; reflexivity.
  (* Rstat, Twstat *)
  all: rewrite gint_app by apply le_enc_length; cbn [bind];
       rewrite gstat_enc by assumption; destruct dotu; reflexivity.
Qed.

Lemma typ_proto m : typ m = proto_typ m.
Proof. exact (typ_is_proto m). Qed.

Lemma proto_typ_range m : 100 <= proto_typ m /\ proto_typ m < 128 /\ proto_typ m <> 106.
Proof. destruct m; cbn [proto_typ]; lia. Qed.

Lemma minsz_ok (dotu : bool) m : exists sz,
  nth_error (if dotu then c_minFcusize else c_minFcsize) (N.to_nat (proto_typ m - 100)) = Some sz /\
  sz <= len (enc_fields (layout dotu m)).
Proof.
  destruct m, dotu; (eexists; split; [vm_compute; reflexivity|]);
    len_fields; rewrite <- ?statsz_spec; unfold Pack.statsz; lia.
Qed.

Lemma unpack_frame dotu ty t b rest :
  wf_u16 t = true -> 7 + len b <= u32max ->
  unpack dotu (frame (7 + len b) ty t (b ++ rest)) = unpack_framed dotu ty t (7 + len b) b.
Proof.
  intros Ht Hs. rewrite unpack_unfold, frame_size, frame_type, frame_tag, frame_body by assumption.
  pose proof (len_frame (7 + len b) ty t (b ++ rest)) as Hl. rewrite len_app in Hl.
  destruct (_ || _) eqn:E; [unfold len in *; lia|].
  replace (N.to_nat (7 + len b) - 7)%nat with (length b) by (unfold len; lia).
  now rewrite firstn_app_exact.
Qed.

Lemma unpack_framed_ok (dotu : bool) ty tag size p sz m :
  100 <= ty -> ty < 128 ->
  nth_error (if dotu then c_minFcusize else c_minFcsize) (N.to_nat (ty - 100)) = Some sz ->
  sz + 7 <= size -> unpack_body dotu ty p = Ok (m, []) ->
  unpack_framed dotu ty tag size p = Ok (tag, m, size).
Proof.
  intros H1 H2 Hn Hs Hb. unfold unpack_framed, c_Tversion, c_Tlast. rewrite Hn, Hb.
  destruct (_ || _) eqn:E; [lia|]. destruct (size <? sz + 7) eqn:E1; [lia|]. reflexivity.
Qed.

Lemma unpack_framed_enc dotu m t :
  wf_fields dotu m = true -> 7 + len (enc_fields (layout dotu m)) <= u32max ->
  unpack_framed dotu (proto_typ m) t (7 + len (enc_fields (layout dotu m))) (enc_fields (layout dotu m))
  = Ok (t, norm_msg dotu m, 7 + len (enc_fields (layout dotu m))).
Proof.
  intros Hw Hs. destruct (proto_typ_range m) as (R1 & R2 & _).
  destruct (minsz_ok dotu m) as (sz & Hn & Hm).
  apply (unpack_framed_ok dotu _ _ _ _ sz); [exact R1 | exact R2 | exact Hn | lia|].
  apply unpack_body_enc; [exact Hw | lia].
Qed.
