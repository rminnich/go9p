(* Unpack on arbitrary bytes and on what the layout writes: no panic, the shape and the fields of
   what it accepts (projections of unpack_wp), dependence on the announced prefix only, the
   allocation bound, re-encoding (the C01 and C02 theorems about Codec/Unpack.v). *)
From Coq Require Import NArith ZArith List Bool PeanoNat Lia.
From Coq Require Import ZifyN ZifyNat ZifyBool.
From V9 Require Import Lib.GoSem Lib.Bytes Lib.ListFacts Gen.Consts Codec.Msg Codec.Unpack Codec.PackProofs
  Codec.UnpackLemmas.
Import ListNotations.
Local Open Scope N_scope.

(* Fields the dialect does not carry come back at the code's defaults ([norm_msg]).  Only
   field ranges and the 32-bit size are needed: the decoder ignores stat size fields. *)
Theorem unpack_encode : forall dotu m t rest,
  wf_fields dotu m = true -> wf_size dotu m = true -> wf_u16 t = true ->
  unpack dotu (spec_encode dotu t m ++ rest)
  = Ok (t, norm_msg dotu m, len (spec_encode dotu t m)).
Proof.
  intros dotu m t rest Hw Hs Ht. apply wf_size_iff in Hs.
  rewrite len_spec_encode, spec_encode_frame, frame_app.
  rewrite unpack_frame by assumption. apply unpack_framed_enc; assumption.
Qed.

Theorem unpack_dir_encode : forall dotu d rest,
  wf_dir dotu d = true ->
  unpack_dir dotu (spec_stat dotu d ++ rest)
  = Ok (len (spec_stat dotu d) - 2, norm_dir dotu d, rest, len (spec_stat dotu d)).
Proof.
  intros dotu d rest H. unfold wf_dir in H. apply andb_true_iff in H as [Hf Hl]. apply N.leb_le in Hl.
  pose proof (len_stat_body dotu d) as Hbody. rewrite statsz_spec in Hbody.
  unfold unpack_dir. cbv zeta.
  destruct (length _ <? _)%nat eqn:E0.
  { exfalso. pose proof (statsz_spec dotu d) as Hs. unfold Pack.statsz, len in Hs.
    rewrite app_length in E0. clear - E0 Hs. destruct dotu; lia. }
  rewrite gstat_enc by assumption. cbn [bind].
  rewrite le_dec_enc by (apply wf_u16_pow, N.leb_le; unfold u16max in *; lia).
  rewrite app_length. unfold len in *. repeat f_equal; lia.
Qed.

Theorem unpack_no_panic : forall dotu buf, unpack dotu buf <> Panic /\ unpack dotu buf <> OutOfFuel.
Proof.
  intros dotu buf. eapply wp_no_panic, (unpack_wp False). contradiction.
Qed.

Theorem unpack_dir_no_panic : forall dotu buf, unpack_dir dotu buf <> Panic /\ unpack_dir dotu buf <> OutOfFuel.
Proof.
  intros dotu buf. apply (wp_no_panic _ (fun _ => True)).
  unfold unpack_dir. cbv zeta. destruct (length buf <? _)%nat; [exact I|].
  eapply wp_seq; [apply (gstat_wp False); contradiction|]. intros [[sz d] b] _. exact I.
Qed.

Lemma typ_range m : c_Tversion <= typ m /\ typ m < c_Tlast /\ typ m <> c_Terror.
Proof. rewrite typ_is_proto. apply proto_typ_range. Qed.

Theorem unpack_ok_shape : forall dotu buf t m n,
  unpack dotu buf = Ok (t, m, n) ->
  7 <= n /\ n <= len buf /\ n = le_dec (firstn 4 buf) /\
  typ m = le_dec (firstn 1 (skipn 4 buf)) /\
  c_Tversion <= typ m /\ typ m < c_Tlast /\ typ m <> c_Terror /\
  t = le_dec (firstn 2 (skipn 5 buf)).
Proof.
  intros dotu buf t m n H.
  destruct (unpack_ok False dotu buf t m n (False_ind _) H). pose proof (typ_range m). tauto.
Qed.

Theorem unpack_prefix_only : forall dotu buf,
  le_dec (firstn 4 buf) <= len buf ->
  unpack dotu buf = unpack dotu (firstn (N.to_nat (le_dec (firstn 4 buf))) buf).
Proof.
  intros dotu buf H. rewrite !unpack_unfold.
  set (k := N.to_nat (le_dec (firstn 4 buf))).
  assert (Hk : length (firstn k buf) = k) by (apply firstn_length_le; unfold k, len in *; lia).
  unfold len in *. rewrite Hk.
  destruct (Nat.ltb_spec k 7) as [Hlt|Hge].
  - (* declared size below the header: both sides are "buffer too short" *)
    replace (le_dec (firstn 4 buf) <? 7) with true by (unfold k in Hlt; lia).
    now rewrite !orb_true_r.
  - rewrite (firstn_firstn buf 4 k), (Nat.min_l 4 k) by lia.
    rewrite (firstn_skipn_firstn 1 4), (firstn_skipn_firstn 2 5) by lia. fold k. rewrite (firstn_skipn_firstn (k - 7) 7) by lia.
    replace (N.of_nat k) with (le_dec (firstn 4 buf)) by (unfold k; lia).
    rewrite N.ltb_irrefl. destruct (length buf <? 7)%nat eqn:E; [lia|].
    destruct (N.ltb_spec (N.of_nat (length buf)) (le_dec (firstn 4 buf))); [lia|]. reflexivity.
Qed.

Theorem unpack_alloc_linear : forall dotu buf,
  unpack_alloc dotu buf <= 8 * len buf.
Proof.
  intros dotu buf. unfold unpack_alloc. cbv zeta.
  destruct (length buf <? 7)%nat eqn:E0; [lia|].
  destruct (_ || _) eqn:E1; [lia|].
  set (p := firstn _ (skipn 7 buf)).
  assert (Hp : (length p <= length buf)%nat).
  { unfold p. rewrite firstn_length, skipn_length. lia. }
  clearbody p. clear E0 E1. unfold len in *.
  destruct (_ =? c_Twalk); [|destruct (_ =? c_Rwalk); [|destruct (_ =? c_Twrite); [|lia]]].
  all: repeat match goal with
  | |- context[match gint ?k ?q with _ => _ end] =>
      let G := fresh "G" in
      destruct (gint k q) as [[? ?]| | |] eqn:G;
      [apply gint_val in G; destruct G as (G & _ & ->); rewrite ?skipn_length|lia..]
  end.
  all: repeat match goal with
  | |- context[if ?c then _ else _] => destruct c eqn:?
  end; lia.
Qed.

Theorem unpack_wf : forall dotu buf t m n,
  all_bytes buf = true -> unpack dotu buf = Ok (t, m, n) ->
  wf_fields dotu m = true /\ norm_msg dotu m = m /\ wf_u16 t = true.
Proof.
  intros dotu buf t m n Hb H. destruct (unpack_ok True dotu buf t m n (fun _ => Hb) H). tauto.
Qed.

Theorem reencode_stable : forall dotu buf t m n,
  all_bytes buf = true -> unpack dotu buf = Ok (t, m, n) ->
  wf_size dotu m = true ->
  unpack dotu (spec_encode dotu t m) = Ok (t, m, len (spec_encode dotu t m)).
Proof.
  intros dotu buf t m n Hb H Hs.
  destruct (unpack_wf dotu buf t m n Hb H) as (Hw & Hn & Ht).
  pose proof (unpack_encode dotu m t [] Hw Hs Ht) as E.
  rewrite app_nil_r, Hn in E. exact E.
Qed.

(* Tauth and Tattach: two strings of at most 65535 bytes beside fixed fields, 131086 bytes at
   most; 200000 is a round number above that and far below u32max *)
Lemma auth_short dotu m :
  wf_fields dotu m = true -> (typ m =? c_Tauth) || (typ m =? c_Tattach) = true ->
  len (enc_fields (layout dotu m)) <= 200000.
Proof.
  destruct m; try discriminate 2; intros Hw _; cbn [wf_fields] in Hw; split_andb.
  all: repeat match goal with H : wf_str _ = true |- _ => apply wf_str_len in H end.
  all: destruct dotu; len_fields; unfold u16max in *; lia.
Qed.

(* What is decoded re-encodes no longer than what was consumed, or is a Tauth or Tattach,
   which are short: so [wf_size], the last hypothesis of reencode_stable, holds of whatever
   a packet of bytes within 32 bits decodes to. *)
Theorem reencode_not_longer_corrected : forall dotu buf t m n,
  all_bytes buf = true ->
  unpack dotu buf = Ok (t, m, n) -> n <= u32max ->
  wf_size dotu m = true.
Proof.
  intros dotu buf t m n Hb H Hmax. apply (unpack_ok True) in H; [|exact (fun _ => Hb)].
  pose proof (up_len H) as Hlen. apply wf_size_iff.
  destruct ((typ m =? c_Tauth) || (typ m =? c_Tattach)) eqn:E; [|lia].
  destruct (up_wf H I) as [Hw _]. pose proof (auth_short dotu m Hw E). unfold u32max. lia.
Qed.

(* Without [all_bytes buf] that statement is false in the model: list elements are
   unbounded N, so a 2-byte length field can announce any length.  A dotu Tauth whose
   optional n_uname is absent and whose declared size is exactly u32max re-encodes 4
   bytes longer. *)
Lemma reencode_cex K : N.of_nat K = 4294967280 ->
  exists buf t m n, unpack true buf = Ok (t, m, n) /\ n <= u32max /\ wf_size true m = false.
Proof.
  intros HK.
  set (b := [0;0;0;0] ++ [N.of_nat K; 0] ++ repeat 0 K ++ [0;0] ++ [] ++ []).
  assert (Lb : len b = 4294967288).
  { unfold b, len. rewrite !app_length, repeat_length. cbn [length]. lia. }
  exists (frame (7 + len b) 102 0 (b ++ [])), 0, (Tauth_ 0 (repeat 0 K) [] c_NOUID), (7 + len b).
  split; [|split].
  - rewrite unpack_frame by (reflexivity || (unfold u32max; lia)).
    apply (unpack_framed_ok true _ _ _ _ 12); [lia | lia | reflexivity | lia|].
    ub_red. unfold b.
    rewrite (gint_app 4 [0;0;0;0]) by reflexivity. cbn [bind].
    rewrite gstr_or_app by (rewrite ?repeat_length; cbn [le_dec length]; lia). cbn [bind].
    rewrite gstr_or_app by reflexivity. cbn [bind].
    reflexivity.
  - unfold u32max. lia.
  - destruct (wf_size true _) eqn:E; [|reflexivity]. exfalso.
    apply wf_size_iff in E. revert E. len_fields.
    unfold len, u32max. rewrite repeat_length. lia.
Qed.

Theorem reencode_not_longer_false :
  ~ (forall dotu buf t m n,
       unpack dotu buf = Ok (t, m, n) -> n <= u32max -> wf_size dotu m = true).
Proof.
  intros Hall.
  destruct (reencode_cex (N.to_nat 4294967280) (N2Nat.id _)) as (buf & t & m & n & H1 & H2 & H3).
  rewrite (Hall _ _ _ _ _ H1 H2) in H3. discriminate H3.
Qed.
