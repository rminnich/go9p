(* Byte strings, field lists and the message frame (used by the decoder proofs as well),
   then the pack model (Codec/Pack.v) against the layout spec (Codec/Msg.v). *)
From Coq Require Import NArith List Bool PeanoNat Lia.
From Coq Require Import ZifyN ZifyNat ZifyBool.
From V9 Require Import Lib.GoSem Lib.Bytes Lib.ListFacts Gen.Consts Codec.Msg Codec.Pack.
Import ListNotations.
Local Open Scope N_scope.

Lemma le_enc_length : forall k v, length (le_enc k v) = k.
Proof.
  induction k; intro v; cbn [le_enc length]; [reflexivity | now rewrite IHk].
Qed.

Lemma len_nil : len [] = 0.
Proof. exact ListFacts.len_nil. Qed.

Lemma len_cons : forall x l, len (x :: l) = 1 + len l.
Proof. intros. unfold len. cbn [length]. lia. Qed.

Lemma len_le_enc : forall k v, len (le_enc k v) = N.of_nat k.
Proof. intros. unfold len. now rewrite le_enc_length. Qed.

Lemma len_le1 : forall v, len (le_enc 1 v) = 1.
Proof. exact (len_le_enc 1). Qed.
Lemma len_le2 : forall v, len (le_enc 2 v) = 2.
Proof. exact (len_le_enc 2). Qed.
Lemma len_le4 : forall v, len (le_enc 4 v) = 4.
Proof. exact (len_le_enc 4). Qed.
Lemma len_le8 : forall v, len (le_enc 8 v) = 8.
Proof. exact (len_le_enc 8). Qed.

#[export] Hint Rewrite len_app len_nil len_cons len_le1 len_le2 len_le4 len_le8 : len.

Lemma firstn_len : forall (l : bytes), firstn (N.to_nat (len l)) l = l.
Proof. intros. unfold len. rewrite Nat2N.id. apply firstn_all. Qed.

Lemma le_dec_enc : forall k v, v < 256 ^ N.of_nat k -> le_dec (le_enc k v) = v.
Proof.
  induction k; intros v Hv.
  - cbn in Hv. cbn [le_enc le_dec]. lia.
  - rewrite Nat2N.inj_succ, N.pow_succ_r' in Hv.
    cbn [le_enc le_dec]. rewrite IHk.
    + rewrite (N.div_mod' v 256) at 3. lia.
    + apply N.div_lt_upper_bound; [discriminate | exact Hv].
Qed.

Lemma wf_u8_pow : forall v, wf_u8 v = true <-> v < 256 ^ N.of_nat 1.
Proof. intro v. unfold wf_u8, u8max. rewrite N.leb_le. change (256 ^ N.of_nat 1) with 256. lia. Qed.
Lemma wf_u16_pow : forall v, wf_u16 v = true <-> v < 256 ^ N.of_nat 2.
Proof. intro v. unfold wf_u16, u16max. rewrite N.leb_le. change (256 ^ N.of_nat 2) with 65536. lia. Qed.
Lemma wf_u32_pow : forall v, wf_u32 v = true <-> v < 256 ^ N.of_nat 4.
Proof. intro v. unfold wf_u32, u32max. rewrite N.leb_le. change (256 ^ N.of_nat 4) with 4294967296. lia. Qed.
Lemma wf_u64_pow : forall v, wf_u64 v = true <-> v < 256 ^ N.of_nat 8.
Proof.
  intro v. unfold wf_u64, u64max. rewrite N.leb_le.
  change (256 ^ N.of_nat 8) with 18446744073709551616. lia.
Qed.

#[export] Hint Resolve -> wf_u8_pow wf_u16_pow wf_u32_pow wf_u64_pow : wf.
#[export] Hint Resolve <- wf_u8_pow wf_u16_pow wf_u32_pow wf_u64_pow : wf.

Lemma enc_fields_cons : forall f l, enc_fields (f :: l) = enc_field f ++ enc_fields l.
Proof. reflexivity. Qed.

Lemma enc_fields_nil : enc_fields [] = [].
Proof. reflexivity. Qed.

Lemma enc_fields_app : forall a b, enc_fields (a ++ b) = enc_fields a ++ enc_fields b.
Proof. intros. apply flat_map_app. Qed.

Lemma enc_fields_FS : forall names, enc_fields (map FS names) = flat_map pstr names.
Proof.
  induction names as [|s t IH]; [reflexivity|].
  cbn [map flat_map]. rewrite enc_fields_cons, IH. reflexivity.
Qed.

Lemma enc_fields_FQ : forall qs, enc_fields (map FQ qs) = flat_map pqid qs.
Proof.
  induction qs as [|s t IH]; [reflexivity|].
  cbn [map flat_map]. rewrite enc_fields_cons, IH. reflexivity.
Qed.

(* The length of an encoding, from the fields: the size of a layout is read off by [cbn]. *)
Definition field_len (f : field) : N :=
  match f with
  | F8 _ => 1 | F16 _ => 2 | F32 _ => 4 | F64 _ => 8
  | FS s => 2 + len s | FQ _ => 13 | FRaw b => len b
  end.

Fixpoint fields_len (fs : list field) : N :=
  match fs with [] => 0 | f :: l => field_len f + fields_len l end.

Lemma len_enc_fields : forall fs, len (enc_fields fs) = fields_len fs.
Proof.
  induction fs as [|f l IH]; [reflexivity|].
  rewrite enc_fields_cons, len_app, IH. cbn [fields_len]. f_equal.
  destruct f; cbn [enc_field field_len]; autorewrite with len; lia.
Qed.

Lemma fields_len_FS : forall names,
  fields_len (map FS names) = N.of_nat (length names) * 2 + sum_len names.
Proof.
  induction names as [|s t IH]; [reflexivity|].
  cbn [map length sum_len fold_right fields_len field_len]. fold (sum_len t). rewrite IH. lia.
Qed.

Lemma fields_len_FQ : forall qs, fields_len (map FQ qs) = N.of_nat (length qs) * 13.
Proof.
  induction qs as [|s t IH]; [reflexivity|].
  cbn [map length fields_len field_len]. rewrite IH. lia.
Qed.

(* the size of a literal layout *)
Ltac len_fields := rewrite ?len_enc_fields; cbn [layout stat_fields app fields_len field_len].

(* a literal field list as the concatenation of its fields' encodings *)
Ltac enc_norm :=
  cbn [layout stat_fields app];
  rewrite ?enc_fields_app, ?enc_fields_cons, ?enc_fields_nil;
  cbn [enc_field].

(* The writers of Pack.v are the field encodings by definition: a sequence of writes is
   the encoding of a literal field list up to the final [++ []]. *)
Ltac same_fields :=
  cbn [layout stat_fields app enc_fields flat_map]; rewrite ?app_nil_r; reflexivity.

Definition frame (n ty t : N) (body : bytes) : bytes := le_enc 4 n ++ [ty] ++ le_enc 2 t ++ body.

Lemma spec_encode_frame : forall dotu t m,
  spec_encode dotu t m =
  frame (7 + len (enc_fields (layout dotu m))) (proto_typ m) t (enc_fields (layout dotu m)).
Proof. reflexivity. Qed.

Lemma frame_app : forall n ty t b rest, frame n ty t b ++ rest = frame n ty t (b ++ rest).
Proof. intros. unfold frame. rewrite <- !app_assoc. reflexivity. Qed.

Lemma len_frame : forall n ty t b, len (frame n ty t b) = 7 + len b.
Proof. intros. unfold frame. autorewrite with len. lia. Qed.

(* The header fields sit at fixed offsets: the projections hold by computation on
   the four-, one- and two-element prefixes. *)
Lemma frame_size : forall n ty t b, n <= u32max -> le_dec (firstn 4 (frame n ty t b)) = n.
Proof. intros n ty t b H. apply (le_dec_enc 4), wf_u32_pow, N.leb_le, H. Qed.

Lemma frame_type : forall n ty t b, le_dec (firstn 1 (skipn 4 (frame n ty t b))) = ty.
Proof. intros. change (ty + 256 * 0 = ty). lia. Qed.

Lemma frame_tag : forall n ty t b, wf_u16 t = true -> le_dec (firstn 2 (skipn 5 (frame n ty t b))) = t.
Proof. intros n ty t b H. apply (le_dec_enc 2), wf_u16_pow, H. Qed.

Lemma frame_body : forall n ty t b, skipn 7 (frame n ty t b) = b.
Proof. reflexivity. Qed.

Lemma len_spec_encode : forall dotu t m,
  len (spec_encode dotu t m) = 7 + len (enc_fields (layout dotu m)).
Proof. intros. rewrite spec_encode_frame. apply len_frame. Qed.

(* [wf_size] is unfolded here, once, on the side where [N.leb] stays applied to the
   packet as a whole: the kernel must never evaluate it on a symbolic packet. *)
Lemma wf_size_iff : forall dotu m,
  wf_size dotu m = true <-> 7 + len (enc_fields (layout dotu m)) <= u32max.
Proof. intros. unfold wf_size. rewrite len_spec_encode. apply N.leb_le. Qed.

Lemma wf_msg_size : forall dotu m,
  wf_msg dotu m = true -> 7 + len (enc_fields (layout dotu m)) <= u32max.
Proof. intros dotu m H. apply andb_prop in H as [_ H]. apply wf_size_iff, H. Qed.

Lemma len_stat_body : forall dotu d,
  2 + len (enc_fields (stat_fields dotu d)) = statsz dotu d.
Proof.
  intros dotu d. unfold statsz. destruct dotu; len_fields; lia.
Qed.

Lemma pstat_spec : forall dotu d, pstat dotu d = spec_stat dotu d.
Proof.
  intros dotu d. unfold pstat, spec_stat. cbv zeta.
  replace (statsz dotu d - 2) with (len (enc_fields (stat_fields dotu d)))
    by (rewrite <- len_stat_body; lia).
  generalize (len (enc_fields (stat_fields dotu d))); intro n.
  destruct dotu; same_fields.
Qed.

Lemma statsz_spec : forall dotu d, statsz dotu d = len (spec_stat dotu d).
Proof.
  intros dotu d. rewrite <- len_stat_body. unfold spec_stat. cbv zeta.
  autorewrite with len. reflexivity.
Qed.

Lemma pack_common_ok : forall buf size id w,
  len w = size -> size + 7 <= len buf ->
  pack_common buf size id w = Ok (frame (size + 7) (id mod 256) c_NOTAG w).
Proof.
  intros buf size id w Hw Hb. unfold pack_common. cbv zeta.
  destruct (N.ltb_spec (len buf) (size + 7)); [lia|].
  change (pint32 (size + 7) ++ pint8 id ++ pint16 c_NOTAG ++ w)
    with (frame (size + 7) (id mod 256) c_NOTAG w).
  pose proof (len_frame (size + 7) (id mod 256) c_NOTAG w) as Hall.
  destruct (N.ltb_spec (len buf) (len (frame (size + 7) (id mod 256) c_NOTAG w))); [lia|].
  f_equal. unfold overlay. apply firstn_app_exact. unfold len in *. lia.
Qed.

Lemma pack_common_small : forall buf size id w,
  len buf < size + 7 ->
  pack_common buf size id w = Err e_bufsmall.
Proof.
  intros buf size id w Hb. unfold pack_common. cbv zeta.
  destruct (N.ltb_spec (len buf) (size + 7)); [reflexivity | lia].
Qed.

Theorem typ_is_proto : forall m, typ m = proto_typ m.
Proof. destruct m; reflexivity. Qed.

Lemma typ_byte : forall m, typ m mod 256 = proto_typ m.
Proof. destruct m; reflexivity. Qed.

Lemma pack_body : forall dotu m buf,
  wf_msg dotu m = true ->
  pack dotu m buf =
  pack_common buf (len (enc_fields (layout dotu m))) (typ m) (enc_fields (layout dotu m)).
Proof.
  intros dotu m buf Hwf.
  assert (E : forall size id w, w = enc_fields (layout dotu m) -> size = fields_len (layout dotu m) ->
            pack_common buf size id w =
            pack_common buf (len (enc_fields (layout dotu m))) id (enc_fields (layout dotu m)))
    by (intros; subst; now rewrite len_enc_fields).
  destruct m; cbn [pack typ]; cbv zeta;
    try match goal with |- context [if dotu then _ else _] => destruct dotu end.
  all: try (apply E; [same_fields | len_fields; lia]).
  - (* Twalk *)
    apply E.
    + cbn [layout]. rewrite enc_fields_app, enc_fields_FS. reflexivity.
    + len_fields. rewrite fields_len_FS. lia.
  - (* Rwalk *)
    apply E.
    + cbn [layout]. rewrite enc_fields_app, enc_fields_FQ. reflexivity.
    + len_fields. rewrite fields_len_FQ. lia.
  - (* Rread: the uint32 conversions are the identity on a representable message *)
    assert (Hd : len data + 11 <= u32max).
    { apply wf_msg_size in Hwf. revert Hwf. len_fields. lia. }
    unfold u32max in Hd. rewrite !N.mod_small by (unfold two32; lia). rewrite firstn_len.
    apply E; [same_fields | len_fields; lia].
  - (* Rstat *)
    rewrite pstat_spec, statsz_spec. apply E; [same_fields | len_fields; lia].
  - (* Twstat *)
    rewrite pstat_spec, statsz_spec. apply E; [same_fields | len_fields; lia].
Qed.

(* whatever the buffer held before: no stale byte leaks into the packet *)
Theorem pack_is_layout : forall dotu m buf,
  wf_msg dotu m = true ->
  len (spec_encode dotu c_NOTAG m) <= len buf ->
  pack dotu m buf = Ok (spec_encode dotu c_NOTAG m).
Proof.
  intros dotu m buf Hwf Hb. rewrite len_spec_encode in Hb.
  rewrite pack_body, pack_common_ok by (reflexivity || lia || exact Hwf).
  rewrite typ_byte, N.add_comm. reflexivity.
Qed.

Theorem pack_too_small : forall t dotu m buf,
  wf_msg dotu m = true ->
  len buf < len (spec_encode dotu t m) ->
  pack dotu m buf = Err e_bufsmall.
Proof.
  intros t dotu m buf Hwf Hb. rewrite len_spec_encode in Hb.
  rewrite pack_body by exact Hwf. apply pack_common_small. lia.
Qed.

Theorem size_prefix_le : forall dotu t m,
  wf_msg dotu m = true -> wf_u16 t = true ->
  le_dec (firstn 4 (spec_encode dotu t m)) = len (spec_encode dotu t m) /\
  nth_error (spec_encode dotu t m) 4 = Some (proto_typ m) /\
  le_dec (firstn 2 (skipn 5 (spec_encode dotu t m))) = t.
Proof.
  intros dotu t m Hwf Ht. rewrite len_spec_encode, spec_encode_frame.
  split; [apply frame_size, wf_msg_size, Hwf | split; [reflexivity | apply frame_tag, Ht]].
Qed.

Theorem set_tag_spec : forall dotu t t' m,
  set_tag (spec_encode dotu t m) t' = Ok (spec_encode dotu t' m).
Proof.
  intros dotu t t' m. unfold set_tag.
  destruct (N.ltb_spec (len (spec_encode dotu t m)) 7) as [H|_].
  - rewrite len_spec_encode in H. lia.
  - reflexivity.
Qed.

Theorem pack_dir_is_spec : forall dotu d,
  wf_dir dotu d = true -> pack_dir dotu d = Ok (spec_stat dotu d).
Proof.
  intros dotu d _. unfold pack_dir. cbv zeta.
  rewrite pstat_spec, statsz_spec.
  destruct (N.ltb_spec (len (spec_stat dotu d)) (len (spec_stat dotu d))); [lia|].
  f_equal. unfold overlay, len. rewrite Nat2N.id.
  rewrite skipn_all2 by (rewrite repeat_length; apply le_n).
  apply app_nil_r.
Qed.

Theorem rread_two_step_spec : forall buf n data k,
  all_bytes data = true -> k <= n -> k <= len data ->
  11 + n <= len buf -> 11 + n <= u32max ->
  rread_two_step buf n data k = Ok (spec_encode false c_NOTAG (Rread_ (firstn (N.to_nat k) data))).
Proof.
  intros buf n data k _ Hkn Hkd Hbuf Hmax.
  unfold rread_two_step, u32max in *. cbv zeta.
  rewrite !N.mod_small by (unfold two32; lia).
  set (hdr := pint32 (4 + n + 7) ++ pint8 c_Rread ++ pint16 c_NOTAG ++ pint32 n).
  change (len hdr) with 11.
  rewrite !(proj2 (N.ltb_ge _ _)) by lia. cbn [orb].
  set (c := N.to_nat (N.min n (len data))).
  set (tl := skipn (11 + c) (overlay hdr buf)). clearbody tl.
  set (d := firstn (N.to_nat k) data).
  assert (Hd : len d = k) by apply len_firstn, Hkd.
  assert (Hmid : firstn (N.to_nat k) (firstn c data ++ tl) = d).
  { rewrite firstn_app, firstn_firstn, firstn_length.
    replace (N.to_nat k - Nat.min c (length data))%nat with 0%nat by (unfold c, len in *; lia).
    rewrite Nat.min_l by (unfold c; lia). apply app_nil_r. }
  replace (N.to_nat (4 + 1 + 2 + 4 + k)) with (11 + N.to_nat k)%nat by lia.
  (* the eleven header bytes are a literal prefix: slicing them is computation *)
  change (Ok (frame (4 + 1 + 2 + 4 + k) 117 c_NOTAG
                (le_enc 4 k ++ firstn (N.to_nat k) (firstn c data ++ tl))) =
          Ok (spec_encode false c_NOTAG (Rread_ d))).
  rewrite Hmid, spec_encode_frame. len_fields. enc_norm. rewrite app_nil_r, Hd.
  do 2 f_equal. lia.
Qed.
